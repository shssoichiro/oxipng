(* C06 — Deterministic output regardless of threads, scheduling and the parallel feature.
   The concurrent compression trials are modelled as a labelled transition system (Model/Evaluate.v)
   whose schedule is an arbitrary event list. PROVED: every complete schedule yields the same
   candidate, namely `best_of` (the key-minimal eligible trial), and so does the synchronous fold of
   the non-parallel build. The whole pipeline model (Model/Optimize.v) is a function of
   (zlib oracle, options, input) that only consults `best_of`, hence has no schedule parameter.
   Runtime residue (partial): interleavings inside libdeflate / zopfli / rayon finer than the two
   shared-state accesses per trial are exercised, not modelled.
   ALSO: the frames of an animation are recompressed pointwise - the result for frame k depends on frame k alone (C06_frames_pointwise). *)
From OxiVerif Require Import Base.Common Model.Evaluate Proofs.EvalProofs.

Theorem C06_schedule_result_is_best_of : forall trials init es s,
  (forall t, In t trials -> 0 <= tK t) -> NoDup (map ident trials) ->
  run trials (init_state trials init) es = Some s -> complete s ->
  min_by_key (received s) = best_of init trials.
Proof. exact schedule_result_is_best_of. Qed.
Print Assumptions C06_schedule_result_is_best_of.

Theorem C06_schedule_independent : forall trials init es1 es2 s1 s2,
  (forall t, In t trials -> 0 <= tK t) -> NoDup (map ident trials) ->
  run trials (init_state trials init) es1 = Some s1 -> complete s1 ->
  run trials (init_state trials init) es2 = Some s2 -> complete s2 ->
  min_by_key (received s1) = min_by_key (received s2).
Proof. exact schedule_independent. Qed.
Print Assumptions C06_schedule_independent.

(* the build without the `parallel` feature computes the same candidate *)
Theorem C06_non_parallel_build_same : forall init trials,
  (forall t, In t trials -> 0 <= tK t) -> NoDup (map ident trials) ->
  sequential init trials = best_of init trials.
Proof. exact sequential_is_best_of. Qed.
Print Assumptions C06_non_parallel_build_same.

(* non-vacuity: three trials that all tie on estimated size and raw size (decided by filter number, then later submission);
   two different complete schedules *)
Definition ex_trials : list trial :=
  [ {| tL := 30; tK := 4; tRaw := 16; tFilter := 0; tNth := 0; tSkip := false |};
    {| tL := 30; tK := 4; tRaw := 16; tFilter := 7; tNth := 0; tSkip := false |};
    {| tL := 34; tK := 0; tRaw := 16; tFilter := 0; tNth := 1; tSkip := false |} ].
Example C06_example :
  exists s1 s2,
    run ex_trials (init_state ex_trials None) [Read 0; Read 1; Read 2; Publish 2; Publish 1; Publish 0] = Some s1 /\
    run ex_trials (init_state ex_trials None) [Read 2; Publish 2; Read 1; Publish 1; Read 0; Publish 0] = Some s2 /\
    completeb s1 = true /\ completeb s2 = true /\
    min_by_key (received s1) = min_by_key (received s2) /\ min_by_key (received s1) = nth_error ex_trials 2.
Proof. eexists. eexists. split; [vm_compute; reflexivity|]. split; [vm_compute; reflexivity|]. vm_compute. auto. Qed.

(* the frames of an animation *)
From OxiVerif Require Import Model.Optimize Proofs.FramesIndependent.

(* the result for frame k is a function of frame k, its position and the oracles' answers for that frame alone: nothing a schedule
   (or another frame's failure) could influence *)
Theorem C06_frames_pointwise : forall e o hd f fs i fs',
  recompress_frames_go e o hd f i fs = Ok fs' ->
  length fs' = length fs /\ forall k fr, nth_error fs k = Some fr -> exists fr', nth_error fs' k = Some fr' /\ frame_result e o hd f (i + k) fr = Ok fr'.
Proof. exact recompress_frames_pointwise. Qed.
Print Assumptions C06_frames_pointwise.

Theorem C06_frames_error_is_local : forall e o hd f fs i,
  (forall fs', recompress_frames_go e o hd f i fs <> Ok fs') ->
  exists k fr, nth_error fs k = Some fr /\ forall fr', frame_result e o hd f (i + k) fr <> Ok fr'.
Proof. exact recompress_frames_error_is_local. Qed.
Print Assumptions C06_frames_error_is_local.
