(* C04 — Never larger: the result is strictly smaller than the input or is the input.
   The statements are about the full pipeline model and hold for EVERY oracle environment: any
   compressor behaviour, any Brute choices, any deadline pattern. The file-routing half
   (in place: no write; other destination: copy of the original) is proved on the I/O model in C12. *)
From OxiVerif Require Import Base.Common Model.Options Model.Optimize Proofs.PipelineProofs.

Theorem C04_memory : forall (e : env) (o : options) (bytes out : list Z),
  force o = false -> optimize_from_memory e o bytes = Ok out ->
  out = bytes \/ lenZ out < lenZ bytes.
Proof. exact never_larger. Qed.
Print Assumptions C04_memory.

Theorem C04_chain_monotone : forall steps, Forall (fun eo => force (snd eo) = false) steps ->
  forall x, lenZ (chain steps x) <= lenZ x.
Proof. exact chain_never_grows. Qed.
Print Assumptions C04_chain_monotone.

(* repeated runs with the same options reach a byte-level fixed point within length(input) steps *)
Theorem C04_fixed_point : forall (e : env) (o : options), force o = false -> forall x,
  exists n, (n <= length x)%nat /\ opt_step e o (iter (opt_step e o) n x) = iter (opt_step e o) n x.
Proof.
  intros e o Hf x. exact (chain_fixed_point (opt_step e o) (opt_step_shrinks e o Hf) x).
Qed.
Print Assumptions C04_fixed_point.

Theorem C04_is_fully_optimized_spec : forall a b o,
  is_fully_optimized a b o = true <-> (a <= b /\ force o = false).
Proof.
  intros. unfold is_fully_optimized. rewrite andb_true_iff, Z.leb_le, negb_true_iff. tauto.
Qed.
Print Assumptions C04_is_fully_optimized_spec.
