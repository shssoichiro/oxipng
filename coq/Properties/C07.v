(* C07 — Metadata chunks are kept, dropped and ordered exactly as the strip policy says.
   PROVED on the parser / serialiser model: the policy function is the documented one (the `safe`
   list equals the list parsed out of MANUAL.txt on this run); the chunks that define the picture are
   dispatched before the policy is consulted; a stripped chunk leaves no trace; a kept chunk is
   recorded with identical name and payload; the C2PA rule; postprocess_chunks is exactly the
   documented conditional filter (nothing invented, order kept, nothing dropped when the format is
   unchanged). The end-to-end characterisation (expected ancillary list of the output) is decided
   per run by model replay + the declarative oracle; the known re-ordering of bKGD/hIST after plain
   chunks is finding F9.
   FILE TO FILE (second half of this file): closed formula for the ancillary list from_slice builds, the ICC decision and the conditional
   drops per side of the image data, the chunk sequence written, the whole call (C07_file_chunk_flow); order across the two classes
   written before IDAT is refuted with the F9 witness (C07_order_refuted). *)
From OxiVerif Require Import Base.Common Model.Types Model.Options Model.Headers Model.PngData Proofs.ChunkProofs.


Theorem C07_policy_is_documented : forall s name,
  strip_keep s name =
  match s with
  | StripNone => true
  | StripAll => false
  | StripSafe => existsb (cname_eqb name) SrcConsts.manual_safe_chunks
  | StripKeep l => existsb (cname_eqb name) l
  | StripStrip l => negb (existsb (cname_eqb name) l)
  end.
Proof. exact strip_keep_spec. Qed.
Print Assumptions C07_policy_is_documented.

Theorem C07_critical_never_stripped : forall o s st c, is_critical (c_name c) = true ->
  from_slice_step (with_strip o s) st c = from_slice_step o st c.
Proof. exact critical_never_stripped. Qed.
Print Assumptions C07_critical_never_stripped.

Theorem C07_stripped_absent : forall o st c, is_critical (c_name c) = false -> strip_keep (strip o) (c_name c) = false ->
  from_slice_step o st c = Ok st.
Proof. exact stripped_is_ignored. Qed.
Print Assumptions C07_stripped_absent.

Theorem C07_kept_identical : forall o st c, is_critical (c_name c) = false -> strip_keep (strip o) (c_name c) = true ->
  is_c2pa (c_name c) (c_data c) = false ->
  cname_eqb (c_name c) name_acTL = false ->
  cname_eqb (c_name c) name_fcTL = false -> cname_eqb (c_name c) name_fdAT = false ->
  exists st', from_slice_step o st c = Ok st' /\ fs_aux st' = c :: fs_aux st /\ fs_idat st' = fs_idat st /\ fs_frames st' = fs_frames st.
Proof. exact kept_is_recorded. Qed.
Print Assumptions C07_kept_identical.

Theorem C07_c2pa : forall o st c, is_critical (c_name c) = false -> is_c2pa (c_name c) (c_data c) = true ->
  from_slice_step o st c =
    if strip_keep (strip o) (c_name c) then (if strip_is_none (strip o) then Ok st else Err EC2PA) else Ok st.
Proof. exact c2pa_policy. Qed.
Print Assumptions C07_c2pa.

Theorem C07_conditional_drops : forall aux hd orig,
  postprocess_chunks aux hd orig =
  List.filter (fun c =>
    negb ((negb (depth orig =? depth hd) || negb (color_type_eqb (ctype orig) (ctype hd))) && droppable_on_format_change (c_name c))
    && negb (negb (Bool.eqb (is_gray (ctype orig)) (is_gray (ctype hd))) && droppable_on_gray_change (c_name c))) aux.
Proof. exact postprocess_spec. Qed.
Print Assumptions C07_conditional_drops.

Theorem C07_none_invented : forall aux hd orig c, In c (postprocess_chunks aux hd orig) -> In c aux.
Proof. exact postprocess_sublist. Qed.
Print Assumptions C07_none_invented.

(* FILE TO FILE *)
From OxiVerif Require Import Spec.Decode Model.Optimize Proofs.OutputProofs Proofs.InputParse Proofs.ApngProofs Proofs.ContainerOk Proofs.ChunkFlow.

(* the ancillary list PngData::from_slice builds from a file, as a closed formula over the specification's chunk list of that file *)
Theorem C07_parsed_ancillary_list : forall e o bytes p cs, bytes_ok bytes ->
  from_slice e bytes o = Ok p -> spec_parse_png bytes = Some cs ->
  aux_chunks p = collect_aux o true (map as_chunk (removelast cs)).
Proof. exact from_slice_aux. Qed.
Print Assumptions C07_parsed_ancillary_list.

(* ... which, for a file whose image data starts with a non-empty IDAT chunk, is: the kept chunks before it (each once, in file
   order), the marker, the kept chunks after it (each once, in file order).  kept_at = not picture-defining, kept by the strip
   policy, animation chunks only all together, not a C2PA manifest, not a frame chunk *)
Theorem C07_parsed_closed_form : forall o before idat after,
  Forall (fun c => cname_eqb (c_name c) name_IDAT = false) before ->
  cname_eqb (c_name idat) name_IDAT = true -> c_data idat <> [] ->
  collect_aux o true (before ++ idat :: after)
  = List.filter (kept_at o true) before ++ {| c_name := c_name idat; c_data := [] |} :: List.filter (kept_at o false) after.
Proof. exact collect_aux_closed_form. Qed.
Print Assumptions C07_parsed_closed_form.

Theorem C07_parse_invents_nothing : forall o cs ie c, In c (collect_aux o ie cs) ->
  (cname_eqb (c_name c) name_IDAT = true /\ c_data c = []) \/ (In c cs /\ kept0 o c = true).
Proof. exact collect_aux_in. Qed.
Print Assumptions C07_parse_invents_nothing.

(* the conditional drops are a filter that acts separately on the two sides of the image data *)
Theorem C07_postprocess_each_side : forall pre m post hd orig, cname_eqb (c_name m) name_IDAT = true ->
  postprocess_chunks (pre ++ m :: post) hd orig = List.filter (pp_keep hd orig) pre ++ m :: List.filter (pp_keep hd orig) post.
Proof. exact postprocess_around_marker. Qed.
Print Assumptions C07_postprocess_each_side.

(* what is written for an ancillary list pre ++ marker :: post: IHDR, the chunks of pre that precede PLTE, PLTE/tRNS, the chunks of
   pre that must follow PLTE, IDAT, the frames, post, IEND *)
Theorem C07_written_closed_form : forall p pre m post,
  aux_chunks p = pre ++ m :: post ->
  Forall (fun c => cname_eqb (c_name c) name_IDAT = false) pre -> cname_eqb (c_name m) name_IDAT = true ->
  Forall (fun c => cname_eqb (c_name c) name_IDAT = false) post ->
  output_chunks p =
    (name_IHDR, to_be32 (width (hdr (raw p))) ++ to_be32 (height (hdr (raw p))) ++
                [depth (hdr (raw p)); png_header_code (ctype (hdr (raw p))); 0; 0; if interlaced (hdr (raw p)) then 1 else 0])
    :: map as_pair (List.filter (fun c => negb (after_plte c)) pre)
    ++ key_chunks (hdr (raw p))
    ++ map as_pair (List.filter (write_special (hdr (raw p))) pre)
    ++ (name_IDAT, idat_data p)
    :: frame_chunk_list (frames p) (lenZ (List.filter (fun c => cname_eqb (c_name c) name_fcTL) (List.filter (write_special (hdr (raw p))) pre)))
    ++ map as_pair post ++ [(name_IEND, [])].
Proof. exact written_closed_form. Qed.
Print Assumptions C07_written_closed_form.

(* FILE TO FILE: the result is the input, or the serialisation of a PngData whose ancillary list is the parsed list after the ICC
   decision (C14) and - when something was emitted - the conditional drops, and whose frames carry the same fields *)
Theorem C07_file_chunk_flow : forall e o bytes out cs, bytes_ok bytes ->
  spec_parse_png bytes = Some cs -> optimize_from_memory e o bytes = Ok out ->
  out = bytes \/
  exists p p', from_slice e bytes o = Ok p /\ optimize_png_data e p o = Ok p' /\ out = output p' /\
    output p' = PNG_SIG ++ serialize (output_chunks p') /\
    let aux0 := collect_aux o true (map as_chunk (removelast cs)) in
    let aux1 := fst (preprocess_chunks e aux0 o) in
    aux_chunks p = aux0 /\
    (aux_chunks p' = aux1 \/ aux_chunks p' = postprocess_chunks aux1 (hdr (raw p')) (hdr (raw p))) /\
    Forall2 (fun a b => same_frame_fields a b /\ (f_data b = f_data a \/ lenZ (f_data b) < lenZ (f_data a))) (frames p) (frames p').
Proof. exact chunk_flow. Qed.
Print Assumptions C07_file_chunk_flow.

(* ORDER. Proved: the chunks before the image data are written as two classes, each in its own order (..._partial). The full
   statement "same relative order" is FALSE of the code (finding F9): witness below, bKGD pHYs is written pHYs bKGD *)
Theorem C07_order_partial : forall p, exists pre,
  written_before p = map as_pair (List.filter (fun c => negb (after_plte c)) pre) ++ map as_pair (List.filter (write_special (hdr (raw p))) pre).
Proof. exact written_before_two_classes. Qed.
Print Assumptions C07_order_partial.

Theorem C07_order_refuted :
  map fst (map as_pair (match split_idat (aux_chunks f9_png) [] with x :: _ => x | [] => [] end)) = [name_bKGD; [112; 72; 89; 115]] /\
  map fst (written_before f9_png) = [[112; 72; 89; 115]; name_bKGD].
Proof. exact written_order_refuted. Qed.
Print Assumptions C07_order_refuted.

(* the ICC decision (C14_decision_table) rewrites the side of the image data on which the first iCCP chunk stands, and only that
   chunk: with C07_parsed_closed_form, C07_postprocess_each_side and C07_written_closed_form this makes the chunk sequence of the
   output an explicit function of the chunk sequence of the input *)
From OxiVerif Require Import Proofs.IccSplit.
Theorem C07_icc_decision_each_side : forall pre m post d, cname_eqb (c_name m) name_IDAT = true ->
  apply_icc_decision (pre ++ m :: post) d =
  match chunk_position name_iCCP pre 0 with
  | Some _ => apply_icc_decision pre d ++ m :: post
  | None => pre ++ m :: apply_icc_decision post d
  end.
Proof. exact apply_icc_around_idat. Qed.
Print Assumptions C07_icc_decision_each_side.
