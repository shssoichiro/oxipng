(* C01 — Lossless: the optimised file decodes to exactly the same pixels.
   FULL STATEMENT (DESIGN.md §3 C01(d)): for every zlib oracle with inflate∘deflate = id, every file,
   options with optimize_alpha = scale_16 = false, every schedule and deadline pattern:
     spec_decode file = Some pic -> optimize_from_memory … file = Ok out -> spec_decode out = Some pic.
   PROVED (this file):
   (1) per-pixel exactness of the sample mappings and the row-filter stage (the C01_partial_pixel theorems);
   (2) IMAGE LEVEL, for every width, height, interlacing and content: each of the transformations
       16->8, sub-byte expansion to 8 bits and reduction to 1/2/4 bits, RGB(A)->gray(A), alpha removal, truecolour/gray->indexed, indexed->channels, palette
       condensation, palette luma sort, any palette reordering that covers the used indices, interlacing and
       DE-INTERLACING (the state machine of src/interlace.rs, bits and bytes variants) maps a
       well-formed image that means `pic` to a well-formed image that means `pic` (the C01_image theorems);
   (3) PIPELINE: perform_reductions, for every option vector with the two lossy switches off and every
       clock: the baseline and every candidate handed to the evaluator mean what the input means
       (C01_reductions_lossless_partial). NOTHING is assumed about the reductions: the two
       co-occurrence palette sorters are proved as well (C01_image_mzeng, C01_image_battiato);
   (4) FILE TO FILE: from_slice reads a valid datastream the way the specification's whole-file decoder does
       (C01_input_parse_means: chunk walker = strict chunk parser, IDAT/IHDR/PLTE/tRNS collection, header
       and colour interpretation, PngImage::new), and optimize_from_memory returns the input bytes or the
       serialisation of a PngData that the specification decodes to the INPUT FILE's picture
       (C01_file_to_file_partial; hypotheses: the zlib oracle, container side conditions on
       the written chunks, image size within usize, colour key within the sample range).
   (5) THE FULL STATEMENT on the model (C01_file_to_file): the container side conditions are DERIVED from the input
       (from_slice's chunks and frames are bounded by the input length, preprocess / postprocess keep that, the key chunks and
       the frame chunks are well-formed, the colour key fits): for a valid input file shorter than 2^31 - 9 bytes,
       optimize_from_memory e o bytes = Ok out  ->  spec_decode_png inflate out = Some pic,
       under the zlib oracle only (inflate o deflate = id, the code's inflate is the specification's, the compressor
       never returns 2 GiB) and validity of the input (one IHDR, at most one PLTE / tRNS, key within the sample range,
       size within usize).
   Everything assumed is exercised on every run by the correspondence check and the specification oracle. *)
From OxiVerif Require Import Base.Common Spec.Filter Spec.Adam7 Spec.Sem Model.Types Model.Options Model.BitDepth Model.ScanLines Model.Filters
  Model.Color Model.Palette Model.Reductions Model.Optimize Proofs.Bridge Proofs.PixelProofs Proofs.FilterProofs Proofs.ImageLift Proofs.LiftColor
  Proofs.LiftPalette Proofs.LiftBits Proofs.LiftInterlace Proofs.LiftDeinterlace Proofs.CoocMatrix Proofs.LiftMzeng Proofs.BattiatoLoop
  Proofs.LiftBattiato Proofs.PipelineLossless Proofs.EmittedStream.
From OxiVerif Require Import Model.Interlace.
From OxiVerif Require Import Spec.Decode Spec.DecodeFile Model.Headers Model.PngData Proofs.OutputProofs Proofs.OutputDecode Proofs.UnfilterImage
  Proofs.InputParse Proofs.FileToFile Proofs.ContainerOk.

(* 16 -> 8 bit reduction: every pixel (samples whose two bytes are equal) keeps its exact RGBA
   value, colour key included (this is the statement that was false before fix 13ac031) *)
Theorem C01_partial_pixel_16_to_8_gray : forall key b,
  (forall k, key = Some k -> u16 k) -> 0 <= b < 256 ->
  color_of_samples (spec_color_of (Gray key)) 16 [257 * b]
  = color_of_samples (spec_color_of (color_type_16_to_8 (Gray key) exact_16_to_8)) 8 [b].
Proof. exact pixel_16_to_8_gray. Qed.
Print Assumptions C01_partial_pixel_16_to_8_gray.

Theorem C01_partial_pixel_16_to_8_rgb : forall key r g b,
  (forall kr kg kb, key = Some (kr, kg, kb) -> u16 kr /\ u16 kg /\ u16 kb) ->
  0 <= r < 256 -> 0 <= g < 256 -> 0 <= b < 256 ->
  color_of_samples (spec_color_of (RGB key)) 16 [257 * r; 257 * g; 257 * b]
  = color_of_samples (spec_color_of (color_type_16_to_8 (RGB key) exact_16_to_8)) 8 [r; g; b].
Proof. exact pixel_16_to_8_rgb. Qed.
Print Assumptions C01_partial_pixel_16_to_8_rgb.

Theorem C01_partial_pixel_16_to_8_alpha : forall r g b a,
  0 <= r < 256 -> 0 <= g < 256 -> 0 <= b < 256 -> 0 <= a < 256 ->
  color_of_samples SRGBA 16 [257 * r; 257 * g; 257 * b; 257 * a] = color_of_samples SRGBA 8 [r; g; b; a]
  /\ color_of_samples SGrayAlpha 16 [257 * b; 257 * a] = color_of_samples SGrayAlpha 8 [b; a].
Proof. intros. split; [apply pixel_16_to_8_rgba | apply pixel_16_to_8_gray_alpha]; assumption. Qed.
Print Assumptions C01_partial_pixel_16_to_8_alpha.

(* RGB -> grayscale: a gray-valued pixel keeps its value; the key is carried over exactly when it
   can still match *)
Theorem C01_partial_pixel_rgb_to_gray : forall key d v, (d = 8 \/ d = 16) -> 0 <= v < 2 ^ d ->
  (forall kr kg kb, key = Some (kr, kg, kb) -> 0 <= kr < 2 ^ d /\ 0 <= kg < 2 ^ d /\ 0 <= kb < 2 ^ d) ->
  color_of_samples (SRGB key) d [v; v; v]
  = color_of_samples (SGray (match key with
                             | Some (r, g, b) => if (r =? g) && (g =? b) then Some r else None
                             | None => None end)) d [v].
Proof. exact pixel_rgb_to_gray. Qed.
Print Assumptions C01_partial_pixel_rgb_to_gray.

(* alpha channel removal: an opaque pixel keeps its value *)
Theorem C01_partial_pixel_drop_alpha : forall d r g b, (d = 8 \/ d = 16) ->
  color_of_samples SRGBA d [r; g; b; 2 ^ d - 1] = color_of_samples (SRGB None) d [r; g; b]
  /\ color_of_samples SGrayAlpha d [r; 2 ^ d - 1] = color_of_samples (SGray None) d [r].
Proof. intros. split; [apply pixel_drop_alpha_rgb | apply pixel_drop_alpha_gray]; assumption. Qed.
Print Assumptions C01_partial_pixel_drop_alpha.

(* row filtering is undone exactly by the specification's reconstruction *)
Theorem C01_partial_filter_stage : forall (f : row_filter) (bpp : nat) (data prev : list Z),
  (1 <= bpp)%nat -> is_standard f = true ->
  (bpp <= length data)%nat -> length prev = length data -> bytes_ok data -> bytes_ok prev ->
  exists buf, filter_line f bpp data prev 0 = Ok (filter_code f :: buf, data) /\
              spec_recon_line bpp (filter_code f) buf prev = data /\
              unfilter_line f bpp buf prev = Ok data.
Proof. exact unfilter_filter_line. Qed.
Print Assumptions C01_partial_filter_stage.

(* image level: every size, interlaced or not *)
Theorem C01_image_16_to_8 : forall img img' pic, means pic img ->
  reduced_bit_depth_16_to_8 img false = Some img' -> means pic img'.
Proof. exact reduced_16_to_8_means. Qed.
Print Assumptions C01_image_16_to_8.

Theorem C01_image_rgb_to_gray : forall img img' pic, wf img ->
  reduced_rgb_to_grayscale img = Some img' -> sem img = Some pic -> sem img' = Some pic /\ wf img'.
Proof. exact reduced_rgb_to_grayscale_sem. Qed.
Print Assumptions C01_image_rgb_to_gray.

Theorem C01_image_drop_alpha : forall img img' pic, wf img ->
  reduced_alpha_channel img false = Some img' -> sem img = Some pic -> sem img' = Some pic /\ wf img'.
Proof. exact reduced_alpha_channel_sem. Qed.
Print Assumptions C01_image_drop_alpha.

Theorem C01_image_to_indexed : forall img img' allow_gray pic, wf img ->
  reduced_to_indexed img allow_gray = Some img' -> sem img = Some pic -> sem img' = Some pic /\ wf img'.
Proof. exact reduced_to_indexed_sem. Qed.
Print Assumptions C01_image_to_indexed.

Theorem C01_image_indexed_to_channels : forall img img' allow_gray pic, wf img ->
  indexed_to_channels img allow_gray false = Some img' -> sem img = Some pic -> sem img' = Some pic /\ wf img'.
Proof. exact indexed_to_channels_sem. Qed.
Print Assumptions C01_image_indexed_to_channels.

Theorem C01_image_reduced_palette : forall img img' pic, wf img ->
  reduced_palette img false = Some img' -> sem img = Some pic -> sem img' = Some pic /\ wf img'.
Proof. exact reduced_palette_sem. Qed.
Print Assumptions C01_image_reduced_palette.

Theorem C01_image_sorted_palette : forall img img' pic, wf img ->
  sorted_palette img = Ok (Some img') -> sem img = Some pic -> sem img' = Some pic /\ wf img'.
Proof. exact sorted_palette_sem. Qed.
Print Assumptions C01_image_sorted_palette.

(* sub-byte depths: expansion to 8 bits and reduction to 1, 2 or 4 bits (scan-line padding, bit replication of gray
   samples and of the colour key included) *)
Theorem C01_image_expand_to_8 : forall img img' pic, wf img ->
  expanded_bit_depth_to_8 img = Ok (Some img') -> sem img = Some pic -> sem img' = Some pic /\ wf img'.
Proof. exact expanded_bit_depth_to_8_sem. Qed.
Print Assumptions C01_image_expand_to_8.

Theorem C01_image_reduce_8_or_less : forall img img' pic, wf img ->
  reduced_bit_depth_8_or_less img = Ok (Some img') -> sem img = Some pic -> sem img' = Some pic /\ wf img'.
Proof. exact reduced_bit_depth_8_or_less_sem. Qed.
Print Assumptions C01_image_reduce_8_or_less.

(* interlacing a non-interlaced image (pixel routing, pass rows packed and padded per row) *)
Theorem C01_image_interlace : forall img img' pic, wf img -> interlaced (hdr img) = false ->
  interlace_image img = Ok img' -> sem img = Some pic -> sem img' = Some pic /\ wf img'.
Proof. exact interlace_image_sem. Qed.
Print Assumptions C01_image_interlace.

(* any reordering of the palette that still lists every index the image uses *)
Theorem C01_image_palette_reorder : forall img remapping img' pic,
  depth (hdr img) = 8 -> wf img -> (length remapping <= 256)%nat ->
  (forall pal, ctype (hdr img) = Indexed pal -> covers (lenZ pal) remapping (data img)) ->
  apply_palette_reorder img remapping = Ok (Some img') -> sem img = Some pic -> sem img' = Some pic /\ wf img'.
Proof. exact apply_palette_reorder_sem. Qed.
Print Assumptions C01_image_palette_reorder.

(* the lifting principle itself: two byte-aligned images whose pixels, in order, have the same colours
   mean the same picture -- whatever the dimensions and the interlacing *)
Theorem C01_lift_samecols : forall w h il pc pc' (B B' : nat) (pxs pxs' : list (list Z)),
  (0 < B)%nat -> (0 < B')%nat ->
  Forall (fun px => length px = B) pxs -> Forall (fun px => length px = B') pxs' ->
  map (fun px => pc' (sbits_of_bytes px)) pxs' = map (fun px => pc (sbits_of_bytes px)) pxs ->
  gsem w h (8 * Z.of_nat B') il pc' (concat pxs') = gsem w h (8 * Z.of_nat B) il pc (concat pxs).
Proof. exact samecols_gsem. Qed.
Print Assumptions C01_lift_samecols.

(* the reduction pipeline *)
Theorem C01_reductions_lossless_partial : forall e o img pic baseline evs,
  optimize_alpha o = false -> scale_16 o = false ->
  means pic img ->
  perform_reductions e o img = Ok (baseline, evs) ->
  means pic baseline /\ Forall (cand_means pic) evs.
Proof. exact perform_reductions_lossless_partial. Qed.
Print Assumptions C01_reductions_lossless_partial.

(* ... and so does the image of whatever candidate optimize_raw finally chooses: for every evaluator schedule, every compressor
   answer, every clock and every size limit *)
Theorem C01_emitted_lossless_partial : forall e o img max_size c pic,
  optimize_alpha o = false -> scale_16 o = false -> means pic img ->
  optimize_raw e o img max_size = Ok (Some c) -> means pic (c_image c).
Proof. exact optimize_raw_lossless_partial. Qed.
Print Assumptions C01_emitted_lossless_partial.

(* ... down to the IDAT content: what is written is the compressor's answer for a filtered stream which the SPECIFICATION's decoder
   (reconstruction of the filtered rows pass by pass, then the meaning of the image data) maps to the picture the input means -
   for all ten filter strategies, any Brute choice oracle, any compressor, schedule and clock *)
Theorem C01_emitted_stream_partial : forall e o img max_size c pic,
  optimize_alpha o = false -> scale_16 o = false -> means pic img ->
  optimize_raw e o img max_size = Ok (Some c) ->
  exists d stream, c_cdata c = z_deflate e d stream /\
    spec_decode_stream (width (hdr (c_image c))) (height (hdr (c_image c))) (spec_color_of (ctype (hdr (c_image c))))
                       (depth (hdr (c_image c))) (interlaced (hdr (c_image c))) stream = Some pic.
Proof. exact emitted_stream_lossless_partial. Qed.
Print Assumptions C01_emitted_stream_partial.

(* ... and to the BYTES WRITTEN: the file that `output` writes for the chosen candidate is decoded by the specification's
   whole-file decoder (strict container parse with CRCs, IHDR, PLTE/tRNS, inflate, un-filtering, Adam7, colour) to the picture the
   input image means. Named side conditions: the decompressor undoes the compressor; chunk payloads < 2^31 bytes; no ancillary
   chunk is named IEND/PLTE/tRNS/IDAT; header fields fit their encodings. *)
Theorem C01_file_decodes_partial : forall e o img max_size c pic (inflate : list Z -> option (list Z)) (p' : pngdata),
  optimize_alpha o = false -> scale_16 o = false -> means pic img ->
  optimize_raw e o img max_size = Ok (Some c) ->
  (forall d s, inflate (z_deflate e d s) = Some s) ->
  raw p' = c_image c -> idat_data p' = c_cdata c ->
  Forall chunk_wf (output_body p') -> Forall not_iend (output_body p') ->
  writable (hdr (raw p')) -> 0 <= depth (hdr (raw p')) < 256 -> Forall not_key (aux_written p') ->
  spec_decode_png inflate (output p') = Some pic.
Proof. exact emitted_file_decodes_partial. Qed.
Print Assumptions C01_file_decodes_partial.

(* THE INPUT SIDE: the image that PngImage::new builds from a header and the compressed image data means exactly what the
   specification's decoder makes of the inflated stream under that header (so `means pic` above is what the input FILE's IDAT
   content decodes to; the chunk-level parse of the input into header, palette, key and IDAT is C01_input_parse_means below) *)
Theorem C01_parsed_image_means : forall (e : env) (hd : ihdr) (compressed : list Z) (img : image),
  png_image_new e hd compressed = Ok img ->
  depth_legal (spec_color_of (ctype hd)) (depth hd) = true -> 1 <= bpp hd ->
  spec_raw_size (width hd) (height hd) (bpp hd) (interlaced hd) true <= usize_max ->
  0 <= width hd -> 0 <= height hd ->
  (forall x n y, z_inflate e x n = Ok y -> bytes_ok y) ->
  exists stream, z_inflate e compressed (raw_data_size hd) = Ok stream /\ hdr img = hd /\ bytes_ok (data img) /\
    spec_unfilter (width hd) (height hd) (bpp hd) (interlaced hd) stream = Some (data img) /\
    sem img = spec_decode_stream (width hd) (height hd) (spec_color_of (ctype hd)) (depth hd) (interlaced hd) stream.
Proof. exact png_image_new_sem. Qed.
Print Assumptions C01_parsed_image_means.

(* non-vacuity: the witness of finding F1 (one row of four gray16 pixels 3434 1212 0000 ffff, key 0x1234):
   after the fix the key is dropped because it can match no pixel *)
Example C01_example_F1 :
  option_map (fun i => (ctype (hdr i), data i))
    (reduced_bit_depth_16_to_8
       {| hdr := {| width := 4; height := 1; ctype := Gray (Some 4660); depth := 16; interlaced := false |};
          data := [52; 52; 18; 18; 0; 0; 255; 255] |} false)
  = Some (Gray None, [52; 18; 0; 255]).
Proof. vm_compute. reflexivity. Qed.

(* de-interlacing: deinterlace_image (the pass / row state machine with increment_pass, bits and bytes variants) maps a
   well-formed interlaced image that means `pic` to a well-formed non-interlaced image that means `pic` - every size *)
Theorem C01_image_deinterlace : forall img img' pic, wf img -> interlaced (hdr img) = true ->
  deinterlace_image img = Ok img' -> sem img = Some pic -> sem img' = Some pic /\ wf img'.
Proof. exact deinterlace_image_sem. Qed.
Print Assumptions C01_image_deinterlace.

(* INPUT SIDE: what PngData::from_slice builds from a valid datastream means the picture the specification decodes from it *)
Theorem C01_input_parse_means : forall (e : env) (o : options) (inflate : list Z -> option (list Z)) bytes p pic nm ih rest,
  bytes_ok bytes ->
  from_slice e bytes o = Ok p ->
  spec_parse_png bytes = Some ((nm, ih) :: rest) ->
  spec_decode_chunks inflate ((nm, ih) :: rest) = Some pic ->
  List.filter (named spec_IHDR) rest = [] ->
  (length (List.filter (named spec_PLTE) rest) <= 1)%nat -> (length (List.filter (named spec_tRNS) rest) <= 1)%nat ->
  (forall x n y, z_inflate e x n = Ok y -> inflate x = Some y /\ bytes_ok y) ->
  spec_raw_size (width (hdr (raw p))) (height (hdr (raw p))) (bpp (hdr (raw p))) (interlaced (hdr (raw p))) true <= usize_max ->
  wf_ctype (ctype (hdr (raw p))) (depth (hdr (raw p))) ->
  wf (raw p) /\ sem (raw p) = Some pic /\
  exists stream, inflate (idat_data p) = Some stream /\
    spec_decode_stream (width (hdr (raw p))) (height (hdr (raw p))) (spec_color_of (ctype (hdr (raw p)))) (depth (hdr (raw p)))
                       (interlaced (hdr (raw p))) stream = Some pic.
Proof. exact from_slice_means. Qed.
Print Assumptions C01_input_parse_means.

(* FILE TO FILE: the whole in-memory entry point on the model *)
Theorem C01_file_to_file_partial : forall e o (inflate : list Z -> option (list Z)) bytes out pic nm ih rest,
  optimize_alpha o = false -> scale_16 o = false ->
  bytes_ok bytes ->
  spec_parse_png bytes = Some ((nm, ih) :: rest) ->
  spec_decode_chunks inflate ((nm, ih) :: rest) = Some pic ->
  List.filter (named spec_IHDR) rest = [] ->
  (length (List.filter (named spec_PLTE) rest) <= 1)%nat -> (length (List.filter (named spec_tRNS) rest) <= 1)%nat ->
  (forall x n y, z_inflate e x n = Ok y -> inflate x = Some y /\ bytes_ok y) ->
  (forall d s, inflate (z_deflate e d s) = Some s) ->
  (forall p, from_slice e bytes o = Ok p ->
     spec_raw_size (width (hdr (raw p))) (height (hdr (raw p))) (bpp (hdr (raw p))) (interlaced (hdr (raw p))) true <= usize_max /\
     wf_ctype (ctype (hdr (raw p))) (depth (hdr (raw p)))) ->
  optimize_from_memory e o bytes = Ok out ->
  out = bytes \/ exists p', out = output p' /\ (container_ok p' -> spec_decode_png inflate (output p') = Some pic).
Proof. intros e o inflate bytes out pic nm ih rest Ha Hs Hok Hparse Hdec H1 H2 H3 Hz Hzd Hside H. exact (optimize_from_memory_lossless_partial e o inflate bytes out pic nm ih rest Hok Hparse Hdec H1 H2 H3 Hz Hzd Hside H Ha Hs). Qed.
Print Assumptions C01_file_to_file_partial.

(* non-vacuity of the file-level hypotheses: a concrete 1x1 8-bit grey datastream (stored "compression") parses strictly and decodes *)
Definition tiny_png : list Z :=
  spec_signature ++ serialize [(spec_IHDR, [0;0;0;1; 0;0;0;1; 8; 0; 0; 0; 0]); (spec_IDAT, [0; 5]); (spec_IEND, [])].
Example C01_file_example :
  spec_decode_png (fun x => Some x) tiny_png = Some {| pic_w := 1; pic_h := 1; pic_px := [[(1285, 1285, 1285, 65535)]] |}
  /\ exists nm ih rest, spec_parse_png tiny_png = Some ((nm, ih) :: rest) /\ List.filter (named spec_IHDR) rest = [].
Proof. split; [vm_compute; reflexivity|]. eexists _, _, _. split; vm_compute; reflexivity. Qed.

(* the mzeng palette sorter: co-occurrence matrix, heaviest edge, greedy insertion by accumulated co-occurrence sums. Its index
   list contains every index the image uses - the co-occurrence graph of the used indices is connected because consecutive
   pixels in scan order are counted, so an unplaced used index always has a positive sum; the code's phantom choice (index 0
   when all sums are zero) can only replace unused entries; a one-colour image is saved by apply_most_popular_color's lookup -
   hence the re-ordered image means the same picture *)
Theorem C01_image_mzeng : forall img r pic, wf img -> sem img = Some pic ->
  sorted_palette_mzeng img = Ok (Some r) -> sem r = Some pic /\ wf r.
Proof. exact sorted_palette_mzeng_sem. Qed.
Print Assumptions C01_image_mzeng.

(* the co-occurrence matrix: symmetric, non-negative, counts every pair of consecutive pixels and only values that occur *)
Theorem C01_cooccurrence_matrix : forall (n : nat) (lines : list scanline) m,
  Forall (fun l => Forall (fun v => 0 <= v < Z.of_nat n) (l_data l)) lines ->
  co_occurrence_matrix n lines = Ok m -> cooc_inv n m (concat (map l_data lines)).
Proof. exact co_occurrence_inv. Qed.
Print Assumptions C01_cooccurrence_matrix.

(* the battiato palette sorter: chains of vertices grown along the edges in order of weight. Over the complete edge list every pair
   of vertices ends in one chain or has a black (interior) member; every chain keeps exactly two red (endpoint) members; hence a
   single chain - chain 0 - finally holds every palette index exactly once *)
Theorem C01_battiato_permutation : forall n edges c0, (2 <= n)%nat ->
  (forall a b, In (a, b) edges <-> 0 <= a < b /\ b < Z.of_nat n) ->
  battiato_reindex n edges = Ok c0 ->
  NoDup c0 /\ (length c0 <= n)%nat /\ forall v, 0 <= v < Z.of_nat n -> In v c0.
Proof. exact battiato_all_indices. Qed.
Print Assumptions C01_battiato_permutation.

Theorem C01_image_battiato : forall img r pic, wf img -> sem img = Some pic ->
  sorted_palette_battiato img = Ok (Some r) -> sem r = Some pic /\ wf r.
Proof. exact sorted_palette_battiato_sem. Qed.
Print Assumptions C01_image_battiato.

(* THE FULL STATEMENT of C01 on the model: no side condition on what is written - it is derived from the input *)
Theorem C01_file_to_file : forall e o (inflate : list Z -> option (list Z)) bytes out pic nm ih rest M,
  optimize_alpha o = false -> scale_16 o = false ->
  bytes_ok bytes -> lenZ bytes + 5 <= M -> M + 4 < 2 ^ 31 -> (forall d s, lenZ (z_deflate e d s) <= M) ->
  spec_parse_png bytes = Some ((nm, ih) :: rest) ->
  spec_decode_chunks inflate ((nm, ih) :: rest) = Some pic ->
  List.filter (named spec_IHDR) rest = [] ->
  (length (List.filter (named spec_PLTE) rest) <= 1)%nat -> (length (List.filter (named spec_tRNS) rest) <= 1)%nat ->
  (forall x n y, z_inflate e x n = Ok y -> inflate x = Some y /\ bytes_ok y) ->
  (forall d s, inflate (z_deflate e d s) = Some s) ->
  (forall p, from_slice e bytes o = Ok p ->
     spec_raw_size (width (hdr (raw p))) (height (hdr (raw p))) (bpp (hdr (raw p))) (interlaced (hdr (raw p))) true <= usize_max /\
     wf_ctype (ctype (hdr (raw p))) (depth (hdr (raw p)))) ->
  optimize_from_memory e o bytes = Ok out ->
  spec_decode_png inflate out = Some pic.
Proof.
  intros e o inflate bytes out pic nm ih rest M Ha Hs Hok HM HM2 Hdefl Hparse Hdec H1 H2 H3 Hz Hzd Hside H.
  exact (optimize_from_memory_lossless e o inflate bytes out pic nm ih rest Hok Hparse Hdec H1 H2 H3 Hz Hzd Hside H M Ha Hs HM HM2 Hdefl).
Qed.
Print Assumptions C01_file_to_file.

(* the size margin in the alpha-reduction block of perform_reductions (Model/Reductions.s_alpha) is the literal of the current source *)
From OxiVerif Require Import Proofs.SrcLiteralAlpha.

Theorem C01_alpha_margin_literal_is_source : SrcConsts.src_alpha_trns_margin = 1000.
Proof. exact alpha_trns_margin_is_source. Qed.
Print Assumptions C01_alpha_margin_literal_is_source.
