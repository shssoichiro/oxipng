(* C19 — Every row-filter strategy round-trips every byte pattern.
   Only statements here; the proofs live in Proofs/FilterProofs.v (lines), FilterImage.v (rows of an image), FilterStream.v (the stream)
   and UnfilterImage.v (foreign streams). *)
From OxiVerif Require Import Base.Common Spec.Filter Model.Types Model.ScanLines Model.Filters Proofs.FilterProofs Proofs.FilterImage
  Proofs.FilterStream.
From OxiVerif Require Import Spec.Adam7 Spec.Sem Spec.Decode Proofs.Bridge Proofs.LiftColor Proofs.UnfilterImage.

(* The specification's own filter and reconstruction are inverse, for every filter type, pixel
   size and neighbour bytes (all lines, no length bound). *)
Theorem C19_spec_roundtrip : forall (bpp : nat) (ft : Z) (line prev : list Z),
  bytes_ok line -> length prev = length line ->
  spec_recon_line bpp ft (spec_filter_line bpp ft line prev) prev = line.
Proof. exact spec_filter_roundtrip. Qed.
Print Assumptions C19_spec_roundtrip.

(* oxipng's filter_line (five delta filters) writes the type byte filter_code f and bytes that the specification's
   reconstruction maps back to the input (they are the specification's filtered bytes: filter_line_is_spec); its own unfilter_line inverts it. *)
Theorem C19_filter_line_roundtrip : forall (f : row_filter) (bpp : nat) (data prev : list Z),
  (1 <= bpp)%nat -> is_standard f = true ->
  (bpp <= length data)%nat -> length prev = length data -> bytes_ok data -> bytes_ok prev ->
  exists buf, filter_line f bpp data prev 0 = Ok (filter_code f :: buf, data) /\
              spec_recon_line bpp (filter_code f) buf prev = data /\
              unfilter_line f bpp buf prev = Ok data.
Proof. exact unfilter_filter_line. Qed.
Print Assumptions C19_filter_line_roundtrip.

(* oxipng's reconstruction of foreign rows is the specification's, for all five filter types *)
Theorem C19_unfilter_line_is_spec : forall (f : row_filter) (bpp : nat) (data prev : list Z),
  (1 <= bpp)%nat -> is_standard f = true ->
  (bpp <= length data)%nat -> length prev = length data -> bytes_ok data -> bytes_ok prev ->
  unfilter_line f bpp data prev = Ok (spec_recon_line bpp (filter_code f) data prev).
Proof. exact unfilter_line_is_spec. Qed.
Print Assumptions C19_unfilter_line_is_spec.

Theorem C19_paeth_is_spec : forall a b c, paeth_predictor a b c = paeth_spec a b c.
Proof. exact paeth_is_spec. Qed.
Print Assumptions C19_paeth_is_spec.

(* non-vacuity: a concrete line meets the hypotheses *)
Example C19_example :
  filter_line FPaeth 2 [10; 20; 30; 40; 250; 3] [1; 2; 3; 4; 5; 6] 0
  = Ok ([4; 9; 18; 20; 20; 220; 219], [10; 20; 30; 40; 250; 3]).
Proof. vm_compute. reflexivity. Qed.

(* IMAGE LEVEL, all ten strategies (any choice oracle for Brute), no alpha rewriting: the rows written for the scan lines of an
   image - of any size, interlaced or not, first rows of the image and of every pass included - have filter types 0..4 and the
   specification's reconstruction of the whole sequence (reference row = previous row of the same pass, else zeros) returns
   exactly the scan lines that were filtered *)
Theorem C19_image_rows_roundtrip : forall brute (img : image) f lines rows,
  (1 <= bpp_bytes img)%nat ->
  scan_lines img false = Ok lines ->
  Forall (fun l => bytes_ok (l_data l) /\ (bpp_bytes img <= length (l_data l))%nat) lines ->
  filter_image_rows brute img f false = Ok rows ->
  Forall2 (fun r l => exists ft buf, r = ft :: buf /\ 0 <= ft <= 4 /\ length buf = length (l_data l)) rows lines /\
  spec_recon_seq (bpp_bytes img) None (combine (map l_pass lines) rows) = Some (map l_data lines).
Proof. exact filter_image_rows_roundtrip. Qed.
Print Assumptions C19_image_rows_roundtrip.

(* STREAM LEVEL: the whole filtered stream written for a decodable image is accepted by the specification's un-filtering of a
   (possibly interlaced) image and gives back exactly the image data *)
Theorem C19_stream_roundtrip : forall brute (img : image) f stream pic,
  wf img -> sem img = Some pic ->
  filter_image brute img f false = Ok stream ->
  spec_unfilter (width (hdr img)) (height (hdr img)) (bpp (hdr img)) (interlaced (hdr img)) stream = Some (data img).
Proof. exact filter_image_stream. Qed.
Print Assumptions C19_stream_roundtrip.

(* FOREIGN FILES, whole images: whenever oxipng's own reconstruction (unfilter_image: scan lines with filter bytes, reference row
   reset at every pass) accepts a filtered stream of the size the header implies, the specification's un-filtering of the
   (possibly interlaced) image accepts it too and yields the same bytes - every size, pixel size and filter type per row *)
Theorem C19_unfilter_image_is_spec : forall (hd : ihdr) (stream d : list Z),
  1 <= width hd -> 1 <= height hd -> 1 <= bpp hd ->
  depth_legal (spec_color_of (ctype hd)) (depth hd) = true ->
  bytes_ok stream ->
  lenZ stream = spec_raw_size (width hd) (height hd) (bpp hd) (interlaced hd) true ->
  unfilter_image {| hdr := hd; data := stream |} = Ok d ->
  spec_unfilter (width hd) (height hd) (bpp hd) (interlaced hd) stream = Some d.
Proof. exact unfilter_image_is_spec. Qed.
Print Assumptions C19_unfilter_image_is_spec.
