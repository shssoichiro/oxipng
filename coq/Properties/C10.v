(* C10 — Animated PNGs keep every frame, its timing and its pixels.
   PROVED on the model: recompression preserves number, order and every fcTL field of the frames and
   replaces frame data only by strictly smaller data; fcTL serialisation/parsing are inverse on all
   fields; the sequence numbers written are consecutive; when the policy does not keep all three
   animation chunk types they are all ignored (plain PNG of the default image; after fix 0e2fef8).
   FRAME PIXELS (C10_frame_pixels): a frame's data is replaced only by the compression of a stream that the specification's
   decoder - frame dimensions, the image's colour type, depth and interlacing - maps to the same picture as the frame's old
   data (alpha-equivalent under alpha optimisation), for all ten filter strategies, every compressor, every subset of
   frames skipped by the clock. Colour type / bit depth / interlacing are unchanged because preprocess_chunks disables
   all reductions when acTL is present (C14_decision_table) and C08 applies.
   FILE TO FILE (second half): the animation read by the APNG specification (Spec/Apng.v) from the input and from the written chunk
   sequence - same frames, fields, default-image flag, play count; header untouched; every frame the same picture. *)
From OxiVerif Require Import Base.Common Spec.Adam7 Model.Types Model.Options Model.Headers Model.PngData Model.Optimize Proofs.ApngProofs
  Proofs.LiftColor Proofs.FramePixels.

Theorem C10_frames_preserved : forall e o p f fs', recompress_frames e o p f = Ok fs' ->
  Forall2 (fun a b => same_frame_fields a b /\ (f_data b = f_data a \/ lenZ (f_data b) < lenZ (f_data a))) (frames p) fs'.
Proof. exact recompress_frames_top. Qed.
Print Assumptions C10_frames_preserved.

Theorem C10_fctl_roundtrip : forall f s, frame_in_range f -> 0 <= s < 2 ^ 32 ->
  exists g, frame_from_fctl (fctl_data f s) = Ok g /\ same_frame_fields f g /\ f_data g = [] /\ be32_of (fctl_data f s) = s.
Proof. exact fctl_roundtrip. Qed.
Print Assumptions C10_fctl_roundtrip.

Theorem C10_sequence_consecutive : forall fs s,
  map snd (frame_chunks fs s) = map (fun k => s + Z.of_nat k) (seq 0 (2 * length fs)).
Proof. exact frame_sequence_consecutive. Qed.
Print Assumptions C10_sequence_consecutive.

Theorem C10_stripped_is_plain_png : forall o st c,
  (cname_eqb (c_name c) name_acTL || cname_eqb (c_name c) name_fcTL || cname_eqb (c_name c) name_fdAT) = true ->
  (strip_keep (strip o) name_acTL && strip_keep (strip o) name_fcTL && strip_keep (strip o) name_fdAT) = false ->
  from_slice_step o st c = Ok st.
Proof. exact animation_stripped_together. Qed.
Print Assumptions C10_stripped_is_plain_png.

(* every frame still shows the same picture (under the zlib oracle assumptions; sizes within usize) *)
Theorem C10_frame_pixels : forall e (inflate : list Z -> option (list Z)) o p f fs',
  (forall x n y, z_inflate e x n = Ok y -> inflate x = Some y /\ bytes_ok y) ->
  (forall d s, inflate (z_deflate e d s) = Some s) ->
  wf_ctype (ctype (hdr (raw p))) (depth (hdr (raw p))) ->
  Forall (fun fr => spec_raw_size (f_width fr) (f_height fr) (bpp (hdr (raw p))) (interlaced (hdr (raw p))) true <= usize_max) (frames p) ->
  recompress_frames e o p f = Ok fs' ->
  Forall2 (fun a b => frame_same (optimize_alpha o) (frame_picture inflate (hdr (raw p)) a) (frame_picture inflate (hdr (raw p)) b)) (frames p) fs'.
Proof. exact recompress_frames_top_pixels. Qed.
Print Assumptions C10_frame_pixels.

(* FILE TO FILE, against the APNG specification (Spec/Apng.v) *)
From OxiVerif Require Import Spec.Decode Spec.DecodeFile Spec.Apng Proofs.OutputProofs Proofs.ApngFile.

(* the animation the specification reads from the input file = the fcTL chunks from_slice keeps among the ancillary chunks (the
   default image as first frame), then the parsed frames; those fcTL chunks carry the sequence numbers 0, 1, ... *)
Theorem C10_parsed_animation : forall e o bytes p cs fr, keeps_animation o -> bytes_ok bytes ->
  from_slice e bytes o = Ok p -> spec_parse_png bytes = Some cs ->
  Forall (fun c => named spec_IDAT c = true -> snd c <> []) cs ->
  spec_apng_frames cs = Some fr ->
  fr = map default_of (List.filter is_fctl (aux_chunks p)) ++ map sframe_of (frames p) /\
  seqs_ok (List.filter is_fctl (aux_chunks p)) 0.
Proof. exact from_slice_animation. Qed.
Print Assumptions C10_parsed_animation.

(* the animation the specification reads from the chunk sequence WRITTEN for a PngData whose ancillary list is pre ++ marker :: post:
   the sequence numbers written are accepted (consecutive from 0), every frame has exactly the fields of the model frame and its
   data, in order *)
Theorem C10_written_animation : forall p pre m post,
  aux_chunks p = pre ++ m :: post ->
  Forall (fun c => cname_eqb (c_name c) name_fdAT = false /\ cname_eqb (c_name c) name_IDAT = false) pre ->
  cname_eqb (c_name m) name_IDAT = true -> Forall no_frame_chunk post ->
  seqs_ok (List.filter is_fctl pre) 0 -> Forall frame_in_range (frames p) ->
  lenZ (List.filter is_fctl pre) + 2 * lenZ (frames p) < 2 ^ 32 ->
  spec_apng_frames (output_chunks p) = Some (map default_of (List.filter is_fctl pre) ++ map sframe_of (frames p)).
Proof. exact written_animation. Qed.
Print Assumptions C10_written_animation.

(* FILE TO FILE: for every input the specification reads as an animation (animation chunks kept by the policy, file below 4 GiB,
   no empty IDAT chunk), the result is the input or the serialisation of a chunk sequence whose animation, read by the specification,
   has the same number of frames in the same order with identical size, offset, delay, dispose and blend fields and the same
   default-image flag, frame data unchanged or strictly smaller (their pixels: C10_frame_pixels) *)
Theorem C10_file_to_file : forall e o bytes out cs fr,
  keeps_animation o -> bytes_ok bytes -> lenZ bytes < 2 ^ 32 ->
  spec_parse_png bytes = Some cs ->
  Forall (fun c => named spec_IDAT c = true -> snd c <> []) cs ->
  spec_apng_frames cs = Some fr ->
  optimize_from_memory e o bytes = Ok out ->
  out = bytes \/
  exists p', out = output p' /\ output p' = PNG_SIG ++ serialize (output_chunks p') /\
    exists fr', spec_apng_frames (output_chunks p') = Some fr' /\ Forall2 frame_rel fr fr'.
Proof. exact apng_file_to_file. Qed.
Print Assumptions C10_file_to_file.

(* non-vacuity: a two-frame animation (default image is frame 0) read by the specification *)
Example C10_spec_example :
  spec_apng_frames [(spec_IHDR, []); (spec_acTL, [0;0;0;2; 0;0;0;0]);
                    (spec_fcTL, [0;0;0;0; 0;0;0;4; 0;0;0;3; 0;0;0;0; 0;0;0;0; 0;1; 0;10; 0; 0]); (spec_IDAT, [1; 2; 3]);
                    (spec_fcTL, [0;0;0;1; 0;0;0;2; 0;0;0;1; 0;0;0;1; 0;0;0;2; 0;1; 0;10; 1; 0]); (spec_fdAT, [0;0;0;2; 9; 8]);
                    (spec_fdAT, [0;0;0;3; 7]); (spec_IEND, [])]
  = Some [{| sf_w := 4; sf_h := 3; sf_x := 0; sf_y := 0; sf_delay_num := 1; sf_delay_den := 10; sf_dispose := 0; sf_blend := 0;
             sf_default := true; sf_data := [] |};
          {| sf_w := 2; sf_h := 1; sf_x := 1; sf_y := 2; sf_delay_num := 1; sf_delay_den := 10; sf_dispose := 1; sf_blend := 0;
             sf_default := false; sf_data := [9; 8; 7] |}].
Proof. vm_compute. reflexivity. Qed.

(* a kept animation: header untouched, every frame the same picture *)
From OxiVerif Require Import Proofs.ContainerOk Proofs.ApngHeader.

(* "the same colour type, bit depth and interlacing": the PngData that is serialised has exactly the header of the parsed input
   (palette / colour key included), because the pre-processing switches every reduction class off for an animation *)
Theorem C10_header_untouched : forall e o p p', has_chunk name_acTL (aux_chunks p) = true ->
  optimize_png_data e p o = Ok p' -> hdr (raw p') = hdr (raw p).
Proof. exact animation_header_untouched. Qed.
Print Assumptions C10_header_untouched.

(* "every frame decodes to the same pixels": under that one header, frame by frame, fields identical and pictures equal
   (alpha-equivalent under alpha optimisation); zlib oracle, sizes within usize *)
Theorem C10_animation_frames_pixels : forall e o p p', has_chunk name_acTL (aux_chunks p) = true ->
  optimize_png_data e p o = Ok p' ->
  forall inflate : list Z -> option (list Z),
  (forall x n y, z_inflate e x n = Ok y -> inflate x = Some y /\ bytes_ok y) ->
  (forall d s, inflate (z_deflate e d s) = Some s) ->
  wf_ctype (ctype (hdr (raw p))) (depth (hdr (raw p))) ->
  Forall (fun fr => spec_raw_size (f_width fr) (f_height fr) (bpp (hdr (raw p))) (interlaced (hdr (raw p))) true <= usize_max) (frames p) ->
  Forall2 (fun a b => same_frame_fields a b /\
                      frame_same (optimize_alpha o) (frame_picture inflate (hdr (raw p)) a) (frame_picture inflate (hdr (raw p)) b))
          (frames p) (frames p').
Proof. exact animation_frames_pixels. Qed.
Print Assumptions C10_animation_frames_pixels.

(* "the same play count": the animation control chunks (acTL: number of frames, number of plays) read from the written chunk
   sequence are exactly those of the input file, in order *)
From OxiVerif Require Import Proofs.ApngControl.
Theorem C10_control_file_to_file : forall e o bytes out cs,
  keeps_animation o -> bytes_ok bytes -> spec_parse_png bytes = Some cs ->
  Forall (fun c => named spec_IDAT c = true -> snd c <> []) cs ->
  optimize_from_memory e o bytes = Ok out ->
  out = bytes \/
  exists p', out = output p' /\ output p' = PNG_SIG ++ serialize (output_chunks p') /\
    List.filter named_actl (output_chunks p') = List.filter named_actl cs /\
    spec_apng_control (output_chunks p') = spec_apng_control cs.
Proof. intros e o bytes out cs K B P _. exact (apng_control_file_to_file e o bytes out cs K B P). Qed.
Print Assumptions C10_control_file_to_file.
