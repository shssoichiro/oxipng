(* C14 — Colour-space metadata stays consistent with the pixel format.
   PROVED on the model of preprocess_chunks / postprocess_chunks (for every zlib oracle):
   the complete decision table (C14_decision_table), and its reading in the words of the property.
   DOWN TO WHAT IS WRITTEN (end of this file): grayness of the image written under a kept profile / sRGB tag; no sRGB / iCCP chunk after a move. *)
From OxiVerif Require Import Base.Common Model.Types Model.Options Model.Headers Proofs.ChunkProofs.

(* preprocess_chunks is exactly: apply the ICC decision to the chunk list, and switch off
   grayscale conversion unless allowed (and all reductions for APNG) *)
Theorem C14_decision_table : forall e aux o,
  fst (preprocess_chunks e aux o) = apply_icc_decision aux (icc_decide e aux o) /\
  let o' := snd (preprocess_chunks e aux o) in
  let apng := has_chunk name_acTL (apply_icc_decision aux (icc_decide e aux o)) in
  grayscale_reduction o' = (grayscale_reduction o && gray_allowed e aux o && negb apng) /\
  bit_depth_reduction o' = (bit_depth_reduction o && negb apng) /\
  color_type_reduction o' = (color_type_reduction o && negb apng) /\
  palette_reduction o' = (palette_reduction o && negb apng) /\
  interlace o' = (if apng then None else interlace o) /\
  strip o' = strip o /\ deflate o' = deflate o /\ idat_recoding o' = idat_recoding o /\ force o' = force o /\
  optimize_alpha o' = optimize_alpha o /\ scale_16 o' = scale_16 o /\ filter o' = filter o /\
  fast_evaluation o' = fast_evaluation o.
Proof. exact preprocess_chunks_spec. Qed.
Print Assumptions C14_decision_table.

Theorem C14_icc_kept_no_gray_change : forall e aux o,
  (icc_decide e aux o = IccKept \/ exists c, icc_decide e aux o = IccRecompressed c) ->
  grayscale_reduction (snd (preprocess_chunks e aux o)) = false.
Proof. exact icc_kept_no_gray_change. Qed.
Print Assumptions C14_icc_kept_no_gray_change.

Theorem C14_srgb_gray_change_only_if_strip : forall e aux o,
  chunk_position name_iCCP aux O = None -> has_chunk name_sRGB aux = true -> strip_is_none (strip o) = true ->
  grayscale_reduction (snd (preprocess_chunks e aux o)) = false.
Proof. exact srgb_gray_change_only_if_strip. Qed.
Print Assumptions C14_srgb_gray_change_only_if_strip.

Theorem C14_iccp_replaced_only_if : forall e aux o i, icc_decide e aux o = IccReplaced i ->
  strip_is_none (strip o) = false /\ strip_keep (strip o) name_sRGB = true /\
  exists iccp icc, In iccp aux /\ cname_eqb (c_name iccp) name_iCCP = true /\ extract_icc e iccp = Some icc /\
                   srgb_rendering_intent icc = Some i /\ nth_error icc 67 = Some i.
Proof. exact icc_replaced_only_if. Qed.
Print Assumptions C14_iccp_replaced_only_if.

Theorem C14_iccp_dropped_only_if : forall e aux o, icc_decide e aux o = IccDroppedForSrgb ->
  strip_is_none (strip o) = false /\ strip_keep (strip o) name_sRGB = true /\ has_chunk name_sRGB aux = true.
Proof. exact icc_dropped_only_if. Qed.
Print Assumptions C14_iccp_dropped_only_if.

Theorem C14_iccp_recompressed_same_profile : forall e icc d mx c,
  (forall dd x n, lenZ x <= n -> z_inflate e (z_deflate e dd x) n = Ok x) ->
  lenZ icc <= lenZ (z_deflate e d icc) * 2 + 1000 ->
  make_iccp e icc d mx = Ok c -> extract_icc e c = Some icc /\ c_name c = name_iCCP.
Proof. exact iccp_recompressed_same_profile. Qed.
Print Assumptions C14_iccp_recompressed_same_profile.

(* whenever the image moved between grayscale and colour the output carries no sRGB / iCCP chunk *)
Theorem C14_gray_change_drops_colourspace : forall aux hd orig c,
  Bool.eqb (is_gray (ctype orig)) (is_gray (ctype hd)) = false ->
  In c (postprocess_chunks aux hd orig) ->
  cname_eqb (c_name c) name_sRGB = false /\ cname_eqb (c_name c) name_iCCP = false.
Proof.
  intros aux hd orig c Hg Hin. rewrite postprocess_spec in Hin. apply filter_In in Hin. destruct Hin as [_ H].
  rewrite Hg in H. cbn [negb andb] in H. apply andb_true_iff in H. destruct H as [_ H].
  unfold droppable_on_gray_change in H. destruct (cname_eqb (c_name c) name_sRGB), (cname_eqb (c_name c) name_iCCP); cbn in H; try discriminate; auto.
Qed.
Print Assumptions C14_gray_change_drops_colourspace.

(* down to what is written (optimize_png_data = what `output` serialises) *)
From OxiVerif Require Import Model.PngData Proofs.ContainerOk Proofs.SwitchesFile.

(* an ICC profile that is kept (as is or recompressed): the image written has the grayness of the input *)
Theorem C14_written_icc_kept_same_grayness : forall e o p p', optimize_png_data e p o = Ok p' ->
  (icc_decide e (aux_chunks p) o = IccKept \/ exists c, icc_decide e (aux_chunks p) o = IccRecompressed c) ->
  is_gray (ctype (hdr (raw p'))) = is_gray (ctype (hdr (raw p))).
Proof. exact data_icc_kept_same_grayness. Qed.
Print Assumptions C14_written_icc_kept_same_grayness.

(* sRGB-tagged, no ICC profile, stripping disabled: the image written has the grayness of the input *)
Theorem C14_written_srgb_same_grayness : forall e o p p', optimize_png_data e p o = Ok p' ->
  chunk_position name_iCCP (aux_chunks p) O = None -> has_chunk name_sRGB (aux_chunks p) = true -> strip_is_none (strip o) = true ->
  is_gray (ctype (hdr (raw p'))) = is_gray (ctype (hdr (raw p))).
Proof. exact data_srgb_same_grayness. Qed.
Print Assumptions C14_written_srgb_same_grayness.

(* whenever the image written moved between grayscale and colour, no sRGB / iCCP chunk is written *)
Theorem C14_written_gray_change_drops_colourspace : forall e o p p', optimize_png_data e p o = Ok p' ->
  forall c, Bool.eqb (is_gray (ctype (hdr (raw p)))) (is_gray (ctype (hdr (raw p')))) = false -> In c (aux_chunks p') ->
  cname_eqb (c_name c) name_sRGB = false /\ cname_eqb (c_name c) name_iCCP = false.
Proof. exact data_gray_change_drops_colourspace. Qed.
Print Assumptions C14_written_gray_change_drops_colourspace.

(* the buffer guess of extract_icc (2 x compressed + 1000, hypothesis of C14_iccp_recompressed_same_profile) is the literal of the current source *)
From OxiVerif Require Import Proofs.SrcLiteralIcc.

Theorem C14_icc_guess_literal_is_source : SrcConsts.src_icc_guess_factor = 2 /\ SrcConsts.src_icc_guess_slack = 1000.
Proof. exact icc_guess_is_source. Qed.
Print Assumptions C14_icc_guess_literal_is_source.
