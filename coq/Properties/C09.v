(* C09 — Command line means what the manual says: flags, routing, exit status.
   PROVED on the model of parse_opts_into_struct / collect_files / the exit fold / the routing in
   `optimize`, against constants parsed out of MANUAL.txt on every run (Gen/SrcConsts.v):
   every row of the manual's preset table is what Options::from_preset builds; the default is level 2
   with interlacing 0; explicit settings override the preset and everything not given comes from the
   preset; '--nx' switches the four reductions off and implies keep-interlacing unless -i is given;
   strip/keep; a strip list naming a critical chunk is refused; exit status 0 / 1 / 3; directories
   only with --recursive and below top level only .png/.apng (any case); routing of the result.
   End to end (the real binary vs the library called with the model's option value) is decided per run. *)
From OxiVerif Require Import Base.Common Model.Options Model.Cli Proofs.CliProofs.


Theorem C09_preset_rows : forall l, In l [0; 1; 2; 3; 4; 5; 6] ->
  exists r, manual_row l = Some r /\ opts_view (from_preset l) = opts_view (interp_row r).
Proof. exact preset_rows. Qed.
Print Assumptions C09_preset_rows.

Theorem C09_defaults : SrcConsts.manual_default_level = 2 /\ opts_view default_options = opts_view (from_preset 2) /\
  (SrcConsts.manual_default_interlace_is_zero = true -> interlace default_options = Some false) /\
  cli_options no_flags = Ok default_options.
Proof. destruct default_is_documented as (A & B & C). repeat split; auto. Qed.
Print Assumptions C09_defaults.

Theorem C09_explicit_overrides_preset : forall f o, cli_options f = Ok o ->
  (forall x, fl_zc f = Some x -> fl_zopfli f = false -> deflate o = Libdeflater x) /\
  (fl_zc f = None -> fl_zopfli f = false -> deflate o = deflate (preset_of f)) /\
  (fl_zopfli f = true -> deflate o = Zopfli (fl_zi f)) /\
  (forall l, fl_filters f = Some l -> filter o = filters_of_codes l []) /\
  (fl_filters f = None -> filter o = filter (preset_of f)) /\
  (fl_fast f = false -> fast_evaluation o = fast_evaluation (preset_of f)).
Proof. exact explicit_overrides_preset. Qed.
Print Assumptions C09_explicit_overrides_preset.

Theorem C09_switches : forall f o, cli_options f = Ok o ->
  optimize_alpha o = fl_alpha f /\ scale_16 o = fl_scale16 f /\ force o = fl_force f /\ fix_errors o = fl_fix f /\
  idat_recoding o = negb (fl_nz f) /\
  (fl_nx f = false -> bit_depth_reduction o = negb (fl_nb f) /\ color_type_reduction o = negb (fl_nc f) /\
                      palette_reduction o = negb (fl_np f) /\ grayscale_reduction o = negb (fl_ng f)) /\
  (forall v, fl_interlace f = Some v -> interlace o = v) /\
  (fl_fast f = true -> fast_evaluation o = true) /\
  (fl_timeout f = None -> has_timeout o = has_timeout (preset_of f)) /\ (fl_timeout f <> None -> has_timeout o = true).
Proof. exact switches_spec. Qed.
Print Assumptions C09_switches.

Theorem C09_nx_implies_keep : forall f o, cli_options f = Ok o -> fl_nx f = true ->
  bit_depth_reduction o = false /\ color_type_reduction o = false /\ palette_reduction o = false /\
  grayscale_reduction o = false /\ (fl_interlace f = None -> interlace o = None).
Proof. exact nx_implies_keep. Qed.
Print Assumptions C09_nx_implies_keep.

Theorem C09_strip : forall f o, cli_options f = Ok o ->
  (fl_strip_safe f = true -> strip o = StripSafe) /\
  (fl_strip_safe f = false -> fl_strip f = Some SaSafe -> strip o = StripSafe) /\
  (fl_strip_safe f = false -> fl_strip f = Some SaAll -> strip o = StripAll) /\
  (fl_strip_safe f = false -> fl_strip f = None -> fl_keep f = None -> strip o = strip (preset_of f)).
Proof. exact strip_spec. Qed.
Print Assumptions C09_strip.

Theorem C09_forbidden_strip_refused : forall f names, fl_strip f = Some (SaList names) ->
  existsb (fun n => existsb (cname_eqb n) FORBIDDEN_CHUNKS) names = true -> cli_options f = Err EOther.
Proof. exact forbidden_strip_refused. Qed.
Print Assumptions C09_forbidden_strip_refused.

Theorem C09_exit_status : forall rs,
  (exit_code rs = 0 <-> In RsOk rs) /\
  (exit_code rs = 1 <-> (~ In RsOk rs /\ In RsFailed rs)) /\
  (exit_code rs = 3 <-> (~ In RsOk rs /\ ~ In RsFailed rs)).
Proof. exact exit_status_spec. Qed.
Print Assumptions C09_exit_status.

Theorem C09_routing : forall inp outp fo,
  (fo = true -> (outp = OutPath None false \/ outp = OutPath None true) -> forall q, inp = InPath q -> route inp outp fo = (DNowhere, false)) /\
  (outp = OutNone -> fst (route inp outp fo) = DNowhere) /\
  (outp = OutStdout -> route inp outp fo = (DStdout, fo)) /\
  (forall p q pr, outp = OutPath (Some p) pr -> inp = InPath q -> list_eqb Z.eqb p q = false -> route inp outp fo = (DFile p, fo)).
Proof. exact output_route_spec. Qed.
Print Assumptions C09_routing.

Theorem C09_collect_below_top_only_png : forall fuel prefix nodes rec p,
  In p (collect fuel rec false prefix nodes) -> exists name, is_png_name name = true /\ last p [] = name.
Proof. exact collect_below_top_only_png. Qed.
Print Assumptions C09_collect_below_top_only_png.

Theorem C09_collect_no_recursion : forall nodes prefix fuel p,
  In p (collect (S fuel) false true prefix nodes) -> exists name, In (FFile name) nodes /\ p = prefix ++ [name].
Proof. exact collect_no_recursion. Qed.
Print Assumptions C09_collect_no_recursion.
