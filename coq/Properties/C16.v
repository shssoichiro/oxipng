(* C16 — Optimisation always terminates, whatever the thread-pool shape.
   The collector / task protocol of the Evaluator (submit; drop sender; wait until every submitted
   task has STARTED, yielding to local work; receive until disconnected) is a labelled transition
   system whose moves belong to the caller, the tasks and the environment (rayon starting a job).
   PROVED for every number of images, every number of filters, every interleaving:
     - no reachable non-final state is stuck, provided the calling thread can run jobs itself
       (it is a worker: yield_local) or some other worker can - in particular on a pool whose ONLY
       available thread is the caller (pool of one; call from inside a worker; all others blocked);
     - while the caller blocks in the channel receive, every task it waits for has already started,
       so the blocked thread is never needed to start anything;
     - every move decreases a measure, so no run is longer than the measure of the first state (no livelock);
     - a run that cannot be extended has returned, with every task finished and the channel empty
       and disconnected: nothing of the call is left in the pool (the pool stays usable);
     - the witness strategy reaches the end from every reachable state.
   Also proved: WITHOUT the wait the protocol deadlocks on a one-thread pool (why the loop is there),
   and a caller outside the pool with no worker available spins for ever (the environment assumption).
   PARTIAL (runtime): that rayon eventually starts a spawned job when a worker is free, work stealing
   and the exact semantics of yield_local are assumptions (cfg_live + the environment moves); the
   inner `par_iter` over filters is modelled as sequential trials of the task. The real code is
   exercised on pools 1..16 x call sites x concurrent images with a watchdog, and its recorded
   protocol events are validated as a run of this transition system. *)
From OxiVerif Require Import Base.Common Model.Sched Proofs.SchedProofs.
Local Open Scope nat_scope.

Theorem C16_no_stuck_state : forall c s, cfg_live c -> SInv s -> cph s <> CDone ->
  exists e s', some_enabled c s = Some e /\ sstep c s e = Some s'.
Proof. exact no_stuck_state. Qed.
Print Assumptions C16_no_stuck_state.

Theorem C16_invariant_reachable : forall c es n s, srun c (sinit n) es = Some s -> SInv s.
Proof. intros c es n s H. exact (sinv_run c es _ _ (sinv_init n) H). Qed.
Print Assumptions C16_invariant_reachable.

Theorem C16_blocking_receive_waits_only_for_started_tasks : forall c es n s,
  srun c (sinit n) es = Some s -> cph s = CRecv ->
  forall i t, nth_error (tasks s) i = Some t -> t <> TSpawned.
Proof. exact blocking_receive_waits_only_for_started_tasks. Qed.
Print Assumptions C16_blocking_receive_waits_only_for_started_tasks.

Theorem C16_measure_decreases : forall c s e s', sstep c s e = Some s' -> mu c s' < mu c s.
Proof. exact measure_decreases. Qed.
Print Assumptions C16_measure_decreases.

Theorem C16_no_livelock : forall c es s s', srun c s es = Some s' -> length es + mu c s' <= mu c s.
Proof. exact run_bounded. Qed.
Print Assumptions C16_no_livelock.

Theorem C16_maximal_run_has_returned_and_left_nothing : forall c n es s, cfg_live c ->
  srun c (sinit n) es = Some s -> (forall e, sstep c s e = None) ->
  cph s = CDone /\ Forall (fun t => t = TFinished) (tasks s) /\ senders s = 0 /\ queue s = 0 /\ s_nth s = n /\ s_executed s = n.
Proof. exact maximal_run_is_complete. Qed.
Print Assumptions C16_maximal_run_has_returned_and_left_nothing.

Theorem C16_end_reachable_from_everywhere : forall c, cfg_live c -> forall fuel s, SInv s -> mu c s <= fuel -> cph (drive c fuel s) = CDone.
Proof. exact drive_reaches_done. Qed.
Print Assumptions C16_end_reachable_from_everywhere.

Theorem C16_without_the_wait_a_single_thread_pool_deadlocks :
  exists s, srun_nospin one_thread (sinit 1) [ESubmit; EDropSender; ESpinExit] = Some s /\
            cph s = CRecv /\ (forall e, sstep_nospin one_thread s e = None).
Proof. exact without_the_wait_a_single_thread_pool_deadlocks. Qed.
Print Assumptions C16_without_the_wait_a_single_thread_pool_deadlocks.

Theorem C16_plain_thread_needs_a_worker :
  let c := {| n_filters := 1; caller_is_worker := false; others := false |} in
  exists s, srun c (sinit 1) [ESubmit; EDropSender] = Some s /\ cph s = CSpin /\ (forall e, sstep c s e = None).
Proof. exact plain_thread_needs_a_worker. Qed.
Print Assumptions C16_plain_thread_needs_a_worker.

(* non-vacuity: a concrete run of two images with two filters each on a one-thread pool *)
Example C16_example_run :
  exists s, srun {| n_filters := 2; caller_is_worker := true; others := false |} (sinit 2)
    [ESubmit; ESubmit; EDropSender; EStart 1 true; ETrial 1 true; ETrial 1 false; EFinish 1; EStart 0 true; ETrial 0 true; ETrial 0 true; EFinish 0;
     ESpinExit; ERecv; ERecv; ERecv; ERecvEnd] = Some s /\ cph s = CDone /\ recvd s = 3.
Proof. eexists. split; [vm_compute; reflexivity|]. split; reflexivity. Qed.
