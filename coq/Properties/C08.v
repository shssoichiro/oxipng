(* C08 — Disabled transformation classes are really disabled.
   Statements on the pipeline model, for every oracle environment (any clock, any compressor), every
   setting of the OTHER switches, presets, filters and deflaters. `optimize_raw` returns the image
   that is then serialised (its header becomes the output IHDR, its palette the output PLTE).
   DOWN TO THE FILE (second half): the same switches for the header of the PngData that is serialised and for the in-memory call. *)
From OxiVerif Require Import Base.Common Model.Types Model.Options Model.Optimize Proofs.EffectProofs Proofs.PipelineProofs.

Theorem C08_bit_depth : forall e o img max_size c,
  bit_depth_reduction o = false ->
  optimize_raw e o img max_size = Ok (Some c) -> depth (hdr (c_image c)) = depth (hdr img).
Proof. intros e o img m c H. apply (emitted_satisfies (fun i => depth (hdr i) = depth (hdr img))). intros; eapply depth_preserved; eauto. Qed.
Print Assumptions C08_bit_depth.

Theorem C08_color_type : forall e o img max_size c,
  color_type_reduction o = false ->
  optimize_raw e o img max_size = Ok (Some c) ->
  png_header_code (ctype (hdr (c_image c))) = png_header_code (ctype (hdr img)).
Proof. intros e o img m c H. apply (emitted_satisfies (fun i => png_header_code (ctype (hdr i)) = png_header_code (ctype (hdr img)))). intros; eapply color_type_preserved; eauto. Qed.
Print Assumptions C08_color_type.

Theorem C08_grayscale : forall e o img max_size c,
  grayscale_reduction o = false ->
  optimize_raw e o img max_size = Ok (Some c) ->
  is_gray (ctype (hdr (c_image c))) = is_gray (ctype (hdr img)).
Proof. intros e o img m c H. apply (emitted_satisfies (fun i => grayness i = grayness img)). intros; eapply grayness_preserved; eauto. Qed.
Print Assumptions C08_grayscale.

(* an indexed image that stays indexed keeps its exact palette entries in order *)
Theorem C08_palette : forall e o img max_size c pal pal',
  palette_reduction o = false -> ctype (hdr img) = Indexed pal ->
  optimize_raw e o img max_size = Ok (Some c) ->
  ctype (hdr (c_image c)) = Indexed pal' -> pal' = pal.
Proof.
  intros e o img m c pal pal' Hp Hc H Hc'.
  refine (emitted_satisfies (fun i => forall p, ctype (hdr i) = Indexed p -> p = pal) e o img m c _ H pal' Hc').
  intros b evs Hpr. destruct (palette_preserved e o img b evs pal Hp Hc Hpr) as [Hb Hev]. split; [|exact Hev].
  intros p Hq. congruence.
Qed.
Print Assumptions C08_palette.

Theorem C08_keep_interlace : forall e o img max_size c,
  interlace o = None ->
  optimize_raw e o img max_size = Ok (Some c) -> interlaced (hdr (c_image c)) = interlaced (hdr img).
Proof. intros e o img m c H. apply (emitted_satisfies (fun i => interlaced (hdr i) = interlaced (hdr img))). intros; eapply interlace_kept; eauto. Qed.
Print Assumptions C08_keep_interlace.

(* a requested interlace mode is the mode of whatever is emitted (so of any forced output) *)
Theorem C08_requested_interlace : forall e o img max_size c m,
  interlace o = Some m ->
  optimize_raw e o img max_size = Ok (Some c) -> interlaced (hdr (c_image c)) = m.
Proof. intros e o img mx c m H. apply (emitted_satisfies (fun i => interlaced (hdr i) = m)). intros; eapply interlace_forced; eauto. Qed.
Print Assumptions C08_requested_interlace.

(* width and height are never changed by any transformation *)
Theorem C08_dimensions : forall e o img max_size c,
  optimize_raw e o img max_size = Ok (Some c) ->
  width (hdr (c_image c)) = width (hdr img) /\ height (hdr (c_image c)) = height (hdr img).
Proof.
  intros e o img m c.
  apply (emitted_satisfies (fun i => width (hdr i) = width (hdr img) /\ height (hdr i) = height (hdr img))).
  intros; eapply dims_preserved; eauto.
Qed.
Print Assumptions C08_dimensions.

(* with all transformations and recompression disabled nothing is produced: the caller keeps the
   decoded input, i.e. the concatenated IDAT stream is re-emitted bit for bit *)
Theorem C08_nx_nz_identity : forall e o img max_size,
  bit_depth_reduction o = false -> color_type_reduction o = false -> palette_reduction o = false ->
  grayscale_reduction o = false -> interlace o = None -> idat_recoding o = false ->
  optimize_raw e o img max_size = Ok None.
Proof. exact nothing_enabled_nothing_done. Qed.
Print Assumptions C08_nx_nz_identity.

(* down to the header that is written, and the in-memory call *)
From OxiVerif Require Import Model.Headers Model.PngData Proofs.ContainerOk Proofs.SwitchesFile.

(* optimize_png_data = what `output` serialises (its header becomes the IHDR of the file). The options actually used are the
   pre-processed ones (an animation or colour-space metadata switch further transformations off, never on) *)
Theorem C08_written_bit_depth : forall e o p p', optimize_png_data e p o = Ok p' ->
  bit_depth_reduction o = false -> depth (hdr (raw p')) = depth (hdr (raw p)).
Proof. exact data_bit_depth. Qed.
Print Assumptions C08_written_bit_depth.

Theorem C08_written_color_type : forall e o p p', optimize_png_data e p o = Ok p' ->
  color_type_reduction o = false -> png_header_code (ctype (hdr (raw p'))) = png_header_code (ctype (hdr (raw p))).
Proof. exact data_color_type. Qed.
Print Assumptions C08_written_color_type.

Theorem C08_written_grayscale : forall e o p p', optimize_png_data e p o = Ok p' ->
  grayscale_reduction o = false -> is_gray (ctype (hdr (raw p'))) = is_gray (ctype (hdr (raw p))).
Proof. exact data_grayscale. Qed.
Print Assumptions C08_written_grayscale.

Theorem C08_written_keep_interlace : forall e o p p', optimize_png_data e p o = Ok p' ->
  interlace o = None -> interlaced (hdr (raw p')) = interlaced (hdr (raw p)).
Proof. exact data_keep_interlace. Qed.
Print Assumptions C08_written_keep_interlace.

(* a requested mode is the mode of whatever is emitted for a still image; a kept animation never changes its interlacing (C10) *)
Theorem C08_written_requested_interlace : forall e o p p', optimize_png_data e p o = Ok p' ->
  forall m, interlace o = Some m -> has_chunk name_acTL (aux_chunks p) = false ->
  raw p' = raw p \/ interlaced (hdr (raw p')) = m.
Proof. exact data_requested_interlace. Qed.
Print Assumptions C08_written_requested_interlace.

Theorem C08_animation_keeps_interlace : forall e o p p', optimize_png_data e p o = Ok p' ->
  has_chunk name_acTL (aux_chunks p) = true -> interlaced (hdr (raw p')) = interlaced (hdr (raw p)).
Proof. exact data_animation_keeps_interlace. Qed.
Print Assumptions C08_animation_keeps_interlace.

(* THE IN-MEMORY CALL: the input back, or the serialisation of a PngData for which every switch is binding *)
Theorem C08_memory_call : forall e o bytes out, optimize_from_memory e o bytes = Ok out ->
  out = bytes \/
  exists p p', from_slice e bytes o = Ok p /\ out = output p' /\
    (bit_depth_reduction o = false -> depth (hdr (raw p')) = depth (hdr (raw p))) /\
    (color_type_reduction o = false -> png_header_code (ctype (hdr (raw p'))) = png_header_code (ctype (hdr (raw p)))) /\
    (grayscale_reduction o = false -> is_gray (ctype (hdr (raw p'))) = is_gray (ctype (hdr (raw p)))) /\
    (interlace o = None -> interlaced (hdr (raw p')) = interlaced (hdr (raw p))) /\
    (forall m, interlace o = Some m -> has_chunk name_acTL (aux_chunks p) = false -> raw p' = raw p \/ interlaced (hdr (raw p')) = m) /\
    width (hdr (raw p')) = width (hdr (raw p)) /\ height (hdr (raw p')) = height (hdr (raw p)).
Proof. exact memory_switches_binding. Qed.
Print Assumptions C08_memory_call.
