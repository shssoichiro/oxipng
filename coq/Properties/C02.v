(* C02 — Output is always a well-formed PNG/APNG that independent decoders accept.
   PROVED on the serialiser model: `output` is the signature followed by the serialisation of an
   explicit chunk sequence; the specification's STRICT container parser (lengths, CRC over type and
   data, IEND last, nothing after it) accepts it and reads back exactly that sequence; the sequence
   is IHDR (13 bytes, encoding the header), chunks, the single IDAT written by `output`, frames,
   chunks, IEND, with PLTE/tRNS synthesised from the header before IDAT; frame sequence numbers are
   consecutive (C10). CRC-32 values fit 32 bits.
   IDAT CONTENT (C02_idat_content_partial): the data of the candidate that optimize_raw emits is the compressor's answer for
   a stream which the specification's un-filtering cuts into exactly the rows the (output) header implies - hence it has exactly
   the size the header implies - each starting with a filter type 0..4, and which un-filters to the candidate's image data, whose
   meaning (palette indices inside the palette included) is the input's (C01). Given for
   runs without alpha rewriting; that inflate undoes the compressor is the zlib oracle assumption, re-validated on every run.
   WHOLE CALL (C02_optimized_file_wellformed): for a valid input shorter than 2^31 - 9 bytes, what optimize_from_memory returns
   is accepted by the strict container parser and decoded by the specification's whole-file decoder (legal IHDR, PLTE/tRNS
   as the colour type requires, one IDAT holding a stream of exactly the implied size with filter types 0..4, IEND last);
   C02_container_side_conditions derives chunk-name / length / key-chunk conditions of everything written from the input.
   PARTIAL: the input-relative ordering constraints of ancillary chunks are decided per run by the strict validator oracle.
   (Finding F8 - hIST kept without PLTE - was repaired by fix 2fc6ac2; the validator reports it if it ever returns.) *)
From OxiVerif Require Import Base.Common Base.Crc32 Model.Types Model.Options Proofs.EmittedStream.
From OxiVerif Require Import Spec.Adam7 Spec.Decode Model.Headers Model.PngData Model.Optimize Proofs.LiftColor Proofs.OutputProofs
  Proofs.PipelineLossless Proofs.FileToFile Proofs.ContainerOk.
From OxiVerif Require Import Spec.DecodeFile Proofs.Bridge Proofs.OutputDecode.

Theorem C02_output_is_chunk_sequence : forall p, output p = PNG_SIG ++ serialize (output_chunks p).
Proof. exact output_is_serialize. Qed.
Print Assumptions C02_output_is_chunk_sequence.

Theorem C02_container_well_formed : forall p,
  Forall chunk_wf (output_body p) -> Forall not_iend (output_body p) ->
  spec_parse_png (output p) = Some (output_chunks p).
Proof. exact output_parses. Qed.
Print Assumptions C02_container_well_formed.

Theorem C02_structure : forall p,
  output_chunks p =
    (name_IHDR, to_be32 (width (hdr (raw p))) ++ to_be32 (height (hdr (raw p))) ++
                [depth (hdr (raw p)); png_header_code (ctype (hdr (raw p))); 0; 0; if interlaced (hdr (raw p)) then 1 else 0])
    :: output_pre p ++ [(name_IDAT, idat_data p)] ++ output_post p ++ [(name_IEND, [])]
  /\ (forall kc, In kc (key_chunks (hdr (raw p))) -> In kc (output_pre p)).
Proof. exact output_structure. Qed.
Print Assumptions C02_structure.

Theorem C02_crc_is_32_bits : forall data, 0 <= crc32 data < 2 ^ 32.
Proof. exact crc32_range. Qed.
Print Assumptions C02_crc_is_32_bits.

(* any well-formed chunk sequence ending in IEND round-trips through the strict parser *)
Theorem C02_parse_serialize : forall cs, Forall chunk_wf cs -> Forall not_iend cs ->
  forall fuel, (length cs < fuel)%nat ->
  spec_parse_chunks fuel (serialize (cs ++ [(spec_IEND, [])])) = Some (cs ++ [(spec_IEND, [])]).
Proof. exact parse_serialize. Qed.
Print Assumptions C02_parse_serialize.

Theorem C02_idat_content_partial : forall e o img max_size c pic,
  optimize_alpha o = false -> scale_16 o = false -> means pic img ->
  optimize_raw e o img max_size = Ok (Some c) ->
  exists d stream, c_cdata c = z_deflate e d stream /\
    spec_unfilter (width (hdr (c_image c))) (height (hdr (c_image c))) (bpp (hdr (c_image c))) (interlaced (hdr (c_image c))) stream
    = Some (data (c_image c)).
Proof. exact emitted_idat_valid_partial. Qed.
Print Assumptions C02_idat_content_partial.

(* an independent decoder's view of the output: the specification's whole-file decoder (strict container, IHDR legal fields, colour
   interpretation from PLTE/tRNS, all IDAT payloads as one stream) reads the written file as the inflated IDAT content under exactly
   the header and palette/key of the image that was written *)
Theorem C02_output_decodes : forall (inflate : list Z -> option (list Z)) (p : pngdata),
  Forall chunk_wf (output_body p) -> Forall not_iend (output_body p) ->
  writable (hdr (raw p)) -> 0 <= depth (hdr (raw p)) < 256 ->
  Forall not_key (aux_written p) ->
  spec_decode_png inflate (output p) =
  match inflate (idat_data p) with
  | Some stream => spec_decode_stream (width (hdr (raw p))) (height (hdr (raw p))) (spec_color_of (ctype (hdr (raw p))))
                                      (depth (hdr (raw p))) (interlaced (hdr (raw p))) stream
  | None => None
  end.
Proof. exact output_decodes. Qed.
Print Assumptions C02_output_decodes.

(* the container side conditions of everything optimize_png writes, derived from the parsed input *)
Theorem C02_container_side_conditions : forall e o p p' N M pic,
  png_ok N p -> 0 <= N -> N + 5 <= M -> M + 4 < 2 ^ 31 -> (forall d s, lenZ (z_deflate e d s) <= M) ->
  0 <= width (hdr (raw p)) < 2 ^ 32 -> 0 <= height (hdr (raw p)) < 2 ^ 32 ->
  scale_16 o = false -> means pic (raw p) ->
  optimize_png_data e p o = Ok p' -> container_ok p'.
Proof. exact optimize_png_data_container. Qed.
Print Assumptions C02_container_side_conditions.

(* whenever optimising a valid file succeeds, the bytes produced are parsed by the strict container parser and decoded *)
Theorem C02_optimized_file_wellformed : forall e o (inflate : list Z -> option (list Z)) bytes out pic nm ih rest M,
  scale_16 o = false ->
  bytes_ok bytes -> lenZ bytes + 5 <= M -> M + 4 < 2 ^ 31 -> (forall d s, lenZ (z_deflate e d s) <= M) ->
  spec_parse_png bytes = Some ((nm, ih) :: rest) ->
  spec_decode_chunks inflate ((nm, ih) :: rest) = Some pic ->
  List.filter (named spec_IHDR) rest = [] ->
  (length (List.filter (named spec_PLTE) rest) <= 1)%nat -> (length (List.filter (named spec_tRNS) rest) <= 1)%nat ->
  (forall x n y, z_inflate e x n = Ok y -> inflate x = Some y /\ bytes_ok y) ->
  (forall d s, inflate (z_deflate e d s) = Some s) ->
  (forall p, from_slice e bytes o = Ok p ->
     spec_raw_size (width (hdr (raw p))) (height (hdr (raw p))) (bpp (hdr (raw p))) (interlaced (hdr (raw p))) true <= usize_max /\
     wf_ctype (ctype (hdr (raw p))) (depth (hdr (raw p)))) ->
  optimize_from_memory e o bytes = Ok out ->
  exists chunks pic', spec_parse_png out = Some chunks /\ spec_decode_chunks inflate chunks = Some pic'.
Proof.
  intros e o inflate bytes out pic nm ih rest M Hs Hok HM HM2 Hdefl Hparse Hdec H1 H2 H3 Hz Hzd Hside H.
  destruct (optimize_from_memory_alpha e o inflate bytes out pic nm ih rest Hok Hparse Hdec H1 H2 H3 Hz Hzd Hside H M Hs HM HM2 Hdefl) as (pic' & Hd & _).
  unfold spec_decode_png in Hd. destruct (spec_parse_png out) as [chunks|]; [|discriminate]. exists chunks, pic'. split; [reflexivity|exact Hd].
Qed.
Print Assumptions C02_optimized_file_wellformed.

(* "consistent acTL/fcTL/fdAT numbering": the chunk sequence written for an animation is accepted by the APNG specification's
   reader (one sequence counter from 0 over fcTL and fdAT, every fdAT after the fcTL of its frame and after the image data), and
   it reads back exactly the frames of the PngData *)
From OxiVerif Require Import Spec.Apng Proofs.ApngProofs Proofs.ApngFile.
Theorem C02_animation_numbering : forall p pre m post,
  aux_chunks p = pre ++ m :: post ->
  Forall (fun c => cname_eqb (c_name c) name_fdAT = false /\ cname_eqb (c_name c) name_IDAT = false) pre ->
  cname_eqb (c_name m) name_IDAT = true -> Forall no_frame_chunk post ->
  seqs_ok (List.filter is_fctl pre) 0 -> Forall frame_in_range (frames p) ->
  lenZ (List.filter is_fctl pre) + 2 * lenZ (frames p) < 2 ^ 32 ->
  spec_apng_frames (output_chunks p) = Some (map default_of (List.filter is_fctl pre) ++ map sframe_of (frames p)).
Proof. exact written_animation. Qed.
Print Assumptions C02_animation_numbering.
