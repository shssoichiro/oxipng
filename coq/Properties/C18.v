(* C18 — Adam7 geometry is exact for every image size. *)
From OxiVerif Require Import Base.Common Spec.Adam7 Model.Types Model.Headers Model.ScanLines Model.Interlace
  Proofs.ScanProofs Proofs.InterlaceProofs Proofs.HeaderProofs Proofs.Adam7RoundTrip.
From OxiVerif Require Import Proofs.Bridge Proofs.LiftColor Proofs.LiftInterlace Proofs.DeinterlaceCore Proofs.DeinterlaceStep
  Proofs.DeinterlaceLink Proofs.LiftDeinterlace.

(* The scan-line iterator emits exactly the pass sizes and row lengths the specification
   prescribes (empty passes omitted), for every width, height >= 1 and every pixel size >= 1 bit *)
Theorem C18_scan_lines_interlaced : forall (hd : ihdr) (hf : bool),
  1 <= width hd -> 1 <= height hd -> 1 <= bpp hd -> interlaced hd = true ->
  scan_ranges hd hf (spec_raw_size (width hd) (height hd) (bpp hd) true hf)
  = Ok (map (fun l => (snd l + (if hf then 1 else 0), fst (fst l), snd (fst l)))
            (spec_layout (width hd) (height hd) (bpp hd) true)).
Proof. exact scan_ranges_interlaced_spec. Qed.
Print Assumptions C18_scan_lines_interlaced.

Theorem C18_scan_lines_plain : forall (hd : ihdr) (hf : bool),
  1 <= width hd -> 1 <= height hd -> 1 <= bpp hd -> interlaced hd = false ->
  scan_ranges hd hf (spec_raw_size (width hd) (height hd) (bpp hd) false hf)
  = Ok (map (fun l => (snd l + (if hf then 1 else 0), fst (fst l), snd (fst l)))
            (spec_layout (width hd) (height hd) (bpp hd) false)).
Proof. exact scan_ranges_plain_spec. Qed.
Print Assumptions C18_scan_lines_plain.

(* the size computed from the header is the specification's total, as long as it fits a usize *)
Theorem C18_raw_data_size : forall hd : ihdr,
  1 <= width hd -> 1 <= height hd -> 1 <= bpp hd ->
  spec_raw_size (width hd) (height hd) (bpp hd) (interlaced hd) true <= usize_max ->
  raw_data_size hd = spec_raw_size (width hd) (height hd) (bpp hd) (interlaced hd) true.
Proof. exact raw_data_size_spec. Qed.
Print Assumptions C18_raw_data_size.

(* the routing table of interlace_image is the specification's 8x8 matrix at every position *)
Theorem C18_route_is_matrix : forall x y, route (y mod 8) (x mod 8) = pass_of x y.
Proof. exact route_is_matrix. Qed.
Print Assumptions C18_route_is_matrix.

(* interlacing moves every pixel into the pass and scan line the specification assigns, for any
   number of rows and any row length (pixels abstract: any pixel size) *)
Theorem C18_interlace_is_spec : forall (A : Type) (rows : list (list A)),
  model_interlace rows = spec_interlace rows.
Proof. exact @model_interlace_is_spec. Qed.
Print Assumptions C18_interlace_is_spec.

(* … and inside a pass row, the k-th pixel is source pixel x0 + k*dx *)
Theorem C18_pass_pixel_position : forall (A : Type) (d0 : A) p (r : list A) (k : nat),
  In p passes7 -> x0 p + Z.of_nat k * dx p < Z.of_nat (length r) ->
  nth k (sel (col_in p) 0 r) d0 = nth (Z.to_nat (x0 p + Z.of_nat k * dx p)) r d0.
Proof. exact @nth_sel_col. Qed.
Print Assumptions C18_pass_pixel_position.

(* doing both conversions returns the original pixels: at the level of the specification, for every width and height
   (and hence, by C18_interlace_is_spec, for the code's interlacing followed by the specification's de-interlacing) *)
Theorem C18_spec_roundtrip : forall (A : Type) (rows : list (list A)) (w h : Z),
  0 <= w -> 0 <= h -> length rows = Z.to_nat h -> (forall r, In r rows -> length r = Z.to_nat w) ->
  spec_deinterlace w h (spec_interlace rows) = Some rows.
Proof. exact @spec_deinterlace_interlace. Qed.
Print Assumptions C18_spec_roundtrip.

Theorem C18_model_interlace_roundtrip : forall (A : Type) (rows : list (list A)) (w h : Z),
  0 <= w -> 0 <= h -> length rows = Z.to_nat h -> (forall r, In r rows -> length r = Z.to_nat w) ->
  spec_deinterlace w h (model_interlace rows) = Some rows.
Proof. intros. rewrite model_interlace_is_spec. apply spec_deinterlace_interlace; assumption. Qed.
Print Assumptions C18_model_interlace_roundtrip.

(* the pixel read back at (x, y) is the pixel that was there *)
Theorem C18_pixel_roundtrip : forall (A : Type) (rows : list (list A)) (w : nat) x y,
  (forall r, In r rows -> length r = w) -> 0 <= x < Z.of_nat w -> 0 <= y ->
  spec_pixel_at (spec_interlace rows) x y =
  match nth_error rows (Z.to_nat y) with Some r => nth_error r (Z.to_nat x) | None => None end.
Proof. exact @spec_pixel_at_interlace. Qed.
Print Assumptions C18_pixel_roundtrip.

(* WHOLE IMAGES, bytes in and bytes out: interlace_image (scan lines -> pixels -> pass rows -> packed, padded bytes) produces data
   that the specification's Adam7 layout and de-interlacing read back as the same picture - every width, height, pixel size *)
Theorem C18_interlace_image_meaning : forall img img' pic, wf img -> interlaced (hdr img) = false ->
  interlace_image img = Ok img' -> sem img = Some pic -> sem img' = Some pic /\ wf img'.
Proof. exact interlace_image_sem. Qed.
Print Assumptions C18_interlace_image_meaning.

(* THE DE-INTERLACING STATE MACHINE (deinterlace_image: current pass, current row, increment_pass skipping empty passes, the
   per-line scatter with x_shift/x_step) computes the specification's de-interlacing of the pass lines it is fed, for every
   width and height and any pixel type; `limit` = the bits variant, which cuts each line to its pixel count *)
Theorem C18_deinterlace_is_spec : forall (A : Type) (blank : A) (w h : Z) (limit : bool) (blk : Z -> list (list A)),
  1 <= w -> 1 <= h ->
  (forall p, In p passes7 -> active w h p -> length (blk p) = Z.to_nat (ph h p) /\ Forall (line_ok w limit p) (blk p)) ->
  (forall p, In p passes7 -> ~ active w h p -> blk p = []) ->
  exists G, model_deinterlace blank w h limit (flat_map blk passes7) = Ok G /\
    spec_deinterlace w h (map (fun p => map (eff w limit p) (blk p)) passes7) = Some G /\
    length G = Z.to_nat h /\ Forall (fun r => length r = Z.to_nat w) G.
Proof. intros A blank w h limit blk Hw Hh H1 H0. exact (model_deinterlace_is_spec blank w h limit Hw Hh blk H1 H0). Qed.
Print Assumptions C18_deinterlace_is_spec.

(* increment_pass goes to the next pass that has pixels, or reports the end *)
Theorem C18_increment_pass : forall w h p, 1 <= w -> 1 <= h -> In p passes7 ->
  match increment_pass p w h with
  | Some p' => In p' passes7 /\ p < p' /\ active w h p' /\ (forall q, p < q < p' -> ~ active w h q)
  | None => forall q, In q passes7 -> p < q -> ~ active w h q
  end.
Proof. exact increment_pass_spec. Qed.
Print Assumptions C18_increment_pass.

(* WHOLE IMAGES, the other direction: deinterlace_image gives an image that means the same picture *)
Theorem C18_deinterlace_image_meaning : forall img img' pic, wf img -> interlaced (hdr img) = true ->
  deinterlace_image img = Ok img' -> sem img = Some pic -> sem img' = Some pic /\ wf img'.
Proof. exact deinterlace_image_sem. Qed.
Print Assumptions C18_deinterlace_image_meaning.

(* non-vacuity *)
Example C18_example : spec_lines 5 3 = [(1, 1); (2, 1); (4, 1); (5, 3); (6, 2); (6, 2); (7, 5)].
Proof. vm_compute. reflexivity. Qed.
