(* C13 — A timeout expiring at any moment still yields a correct result.
   In the model the clock is the oracle `dl : site -> bool` (the answer of Deadline::passed() at each
   consultation site: before each transformation, each compression trial, each frame). Every theorem
   about the pipeline is stated for an arbitrary environment, hence for EVERY pattern of answers --
   in particular for "expired from the k-th check on", for every k, and for non-monotone clocks.
   PROVED here: never-larger (C04) under any deadline pattern; the evaluator returns the minimal
   completed trial whichever trials were skipped (tSkip) and in whichever order the others complete.
   FIDELITY under any clock: the file-to-file theorems of C01 / C03 / C10 are stated for an arbitrary environment; they are
   instantiated here with an explicit, arbitrary clock: under container side conditions (C13_fidelity_any_clock,
   C13_alpha_fidelity_any_clock), per frame (C13_frames_any_clock), and without any container hypothesis
   (C13_file_to_file_any_clock, C13_animation_any_clock). Every landing point k and explicit answer patterns over the frame
   checks are additionally replayed and decoded by the specification on every run. *)
From OxiVerif Require Import Base.Common Spec.Adam7 Spec.Decode Spec.DecodeFile Model.Types Model.Options Model.Headers Model.PngData Model.Evaluate
  Model.Optimize Proofs.EvalProofs Proofs.PipelineProofs Proofs.LiftColor Proofs.LiftAlpha Proofs.FileToFile Proofs.ContainerOk Proofs.FramePixels.

(* the same statement as C04, made explicit for an arbitrary clock *)
Theorem C13_never_larger_any_landing : forall (zd : deflater -> list Z -> list Z) zi br (clock : site -> bool)
    (o : options) (bytes out : list Z),
  force o = false ->
  optimize_from_memory {| z_deflate := zd; z_inflate := zi; e_brute := br; dl := clock |} o bytes = Ok out ->
  out = bytes \/ lenZ out < lenZ bytes.
Proof. intros. eapply never_larger; eauto. Qed.
Print Assumptions C13_never_larger_any_landing.

(* expiry seen by some trials (skip flags arbitrary): every schedule of the remaining trials still
   yields the key-minimal trial among those that ran and fit under the bound *)
Theorem C13_evaluator_with_skips : forall trials init es s,
  (forall t, In t trials -> 0 <= tK t) -> NoDup (map ident trials) ->
  run trials (init_state trials init) es = Some s -> complete s ->
  match min_by_key (received s) with
  | Some m => In m trials /\ tSkip m = false /\ le_bound (tL m) init = true /\
              forall t, In t trials -> eligible init t = true -> t = m \/ key_lt m t
  | None => forall t, In t trials -> eligible init t = false
  end.
Proof.
  intros trials init es s HK Hnd Hrun Hc.
  rewrite (schedule_result_is_best_of trials init es s HK Hnd Hrun Hc).
  pose proof (best_of_spec init trials Hnd) as H. destruct (best_of init trials) as [m|]; [|exact H].
  destruct H as (Hin & Hel & Hmin). unfold eligible in Hel. apply andb_true_iff in Hel. destruct Hel as [H1 H2].
  split; [exact Hin|]. split; [destruct (tSkip m); [discriminate|reflexivity]|]. split; [exact H2|exact Hmin].
Qed.
Print Assumptions C13_evaluator_with_skips.

(* if every trial saw the deadline expired, nothing is returned (and the caller keeps the input) *)
Theorem C13_all_skipped : forall trials init, (forall t, In t trials -> tSkip t = true) -> best_of init trials = None.
Proof.
  intros trials init H. unfold best_of.
  assert (G : forall l b, (forall t, In t l -> tSkip t = true) -> best_of_go init l b = b).
  { induction l as [|t r IH]; intros b Hl; cbn [best_of_go]; [reflexivity|].
    unfold eligible. rewrite (Hl t (or_introl eq_refl)). cbn [negb andb]. apply IH. intros u Hu. apply Hl. right. exact Hu. }
  apply G. exact H.
Qed.
Print Assumptions C13_all_skipped.

(* fidelity, whichever checks of the clock see it expired (clock : site -> bool arbitrary, not even monotone) *)
Theorem C13_fidelity_any_clock : forall zd zi br (clock : site -> bool) o (inflate : list Z -> option (list Z)) bytes out pic nm ih rest,
  let e := {| z_deflate := zd; z_inflate := zi; e_brute := br; dl := clock |} in
  optimize_alpha o = false -> scale_16 o = false ->
  bytes_ok bytes ->
  spec_parse_png bytes = Some ((nm, ih) :: rest) ->
  spec_decode_chunks inflate ((nm, ih) :: rest) = Some pic ->
  List.filter (named spec_IHDR) rest = [] ->
  (length (List.filter (named spec_PLTE) rest) <= 1)%nat -> (length (List.filter (named spec_tRNS) rest) <= 1)%nat ->
  (forall x n y, z_inflate e x n = Ok y -> inflate x = Some y /\ bytes_ok y) ->
  (forall d s, inflate (z_deflate e d s) = Some s) ->
  (forall p, from_slice e bytes o = Ok p ->
     spec_raw_size (width (hdr (raw p))) (height (hdr (raw p))) (bpp (hdr (raw p))) (interlaced (hdr (raw p))) true <= usize_max /\
     wf_ctype (ctype (hdr (raw p))) (depth (hdr (raw p)))) ->
  optimize_from_memory e o bytes = Ok out ->
  out = bytes \/ exists p', out = output p' /\ (container_ok p' -> spec_decode_png inflate (output p') = Some pic).
Proof. intros zd zi br clock o inflate bytes out pic nm ih rest e Ha Hs Hok Hparse Hdec H1 H2 H3 Hz Hzd Hside H. exact (optimize_from_memory_lossless_partial e o inflate bytes out pic nm ih rest Hok Hparse Hdec H1 H2 H3 Hz Hzd Hside H Ha Hs). Qed.
Print Assumptions C13_fidelity_any_clock.

Theorem C13_alpha_fidelity_any_clock : forall zd zi br (clock : site -> bool) o (inflate : list Z -> option (list Z)) bytes out pic nm ih rest,
  let e := {| z_deflate := zd; z_inflate := zi; e_brute := br; dl := clock |} in
  scale_16 o = false ->
  bytes_ok bytes ->
  spec_parse_png bytes = Some ((nm, ih) :: rest) ->
  spec_decode_chunks inflate ((nm, ih) :: rest) = Some pic ->
  List.filter (named spec_IHDR) rest = [] ->
  (length (List.filter (named spec_PLTE) rest) <= 1)%nat -> (length (List.filter (named spec_tRNS) rest) <= 1)%nat ->
  (forall x n y, z_inflate e x n = Ok y -> inflate x = Some y /\ bytes_ok y) ->
  (forall d s, inflate (z_deflate e d s) = Some s) ->
  (forall p, from_slice e bytes o = Ok p ->
     spec_raw_size (width (hdr (raw p))) (height (hdr (raw p))) (bpp (hdr (raw p))) (interlaced (hdr (raw p))) true <= usize_max /\
     wf_ctype (ctype (hdr (raw p))) (depth (hdr (raw p)))) ->
  optimize_from_memory e o bytes = Ok out ->
  out = bytes \/ exists p', out = output p' /\
    (container_ok p' -> exists pic', spec_decode_png inflate (output p') = Some pic' /\ pic_aequiv pic pic').
Proof. intros zd zi br clock o inflate bytes out pic nm ih rest e Hs Hok Hparse Hdec H1 H2 H3 Hz Hzd Hside H. exact (optimize_from_memory_alpha_partial e o inflate bytes out pic nm ih rest Hok Hparse Hdec H1 H2 H3 Hz Hzd Hside H Hs). Qed.
Print Assumptions C13_alpha_fidelity_any_clock.

(* animated images: whichever frames the clock lets through, every frame still shows its picture *)
Theorem C13_frames_any_clock : forall zd zi br (clock : site -> bool) (inflate : list Z -> option (list Z)) o p f fs',
  let e := {| z_deflate := zd; z_inflate := zi; e_brute := br; dl := clock |} in
  (forall x n y, z_inflate e x n = Ok y -> inflate x = Some y /\ bytes_ok y) ->
  (forall d s, inflate (z_deflate e d s) = Some s) ->
  wf_ctype (ctype (hdr (raw p))) (depth (hdr (raw p))) ->
  Forall (fun fr => spec_raw_size (f_width fr) (f_height fr) (bpp (hdr (raw p))) (interlaced (hdr (raw p))) true <= usize_max) (frames p) ->
  recompress_frames e o p f = Ok fs' ->
  Forall2 (fun a b => frame_same (optimize_alpha o) (frame_picture inflate (hdr (raw p)) a) (frame_picture inflate (hdr (raw p)) b)) (frames p) fs'.
Proof. intros zd zi br clock inflate o p f fs' e. exact (recompress_frames_top_pixels e inflate o p f fs'). Qed.
Print Assumptions C13_frames_any_clock.

(* the complete file-to-file statements under an arbitrary clock *)
From OxiVerif Require Import Spec.Apng Proofs.ApngFile Proofs.OutputProofs.

(* C01 file to file without any container hypothesis, whichever checks of the clock see it expired *)
Theorem C13_file_to_file_any_clock : forall zd zi br (clock : site -> bool) o (inflate : list Z -> option (list Z)) bytes out pic nm ih rest M,
  let e := {| z_deflate := zd; z_inflate := zi; e_brute := br; dl := clock |} in
  optimize_alpha o = false -> scale_16 o = false ->
  bytes_ok bytes -> lenZ bytes + 5 <= M -> M + 4 < 2 ^ 31 -> (forall d s, lenZ (z_deflate e d s) <= M) ->
  spec_parse_png bytes = Some ((nm, ih) :: rest) ->
  spec_decode_chunks inflate ((nm, ih) :: rest) = Some pic ->
  List.filter (named spec_IHDR) rest = [] ->
  (length (List.filter (named spec_PLTE) rest) <= 1)%nat -> (length (List.filter (named spec_tRNS) rest) <= 1)%nat ->
  (forall x n y, z_inflate e x n = Ok y -> inflate x = Some y /\ bytes_ok y) ->
  (forall d s, inflate (z_deflate e d s) = Some s) ->
  (forall p, from_slice e bytes o = Ok p ->
     spec_raw_size (width (hdr (raw p))) (height (hdr (raw p))) (bpp (hdr (raw p))) (interlaced (hdr (raw p))) true <= usize_max /\
     wf_ctype (ctype (hdr (raw p))) (depth (hdr (raw p)))) ->
  optimize_from_memory e o bytes = Ok out ->
  spec_decode_png inflate out = Some pic.
Proof.
  intros zd zi br clock o inflate bytes out pic nm ih rest M e Ha Hs Hok HM HM2 Hdefl Hparse Hdec H1 H2 H3 Hz Hzd Hside H.
  exact (optimize_from_memory_lossless e o inflate bytes out pic nm ih rest Hok Hparse Hdec H1 H2 H3 Hz Hzd Hside H M Ha Hs HM HM2 Hdefl).
Qed.
Print Assumptions C13_file_to_file_any_clock.

(* the animation read by the APNG specification, whichever frames the clock lets through *)
Theorem C13_animation_any_clock : forall zd zi br (clock : site -> bool) o bytes out cs fr,
  let e := {| z_deflate := zd; z_inflate := zi; e_brute := br; dl := clock |} in
  keeps_animation o -> bytes_ok bytes -> lenZ bytes < 2 ^ 32 ->
  spec_parse_png bytes = Some cs ->
  Forall (fun c => named spec_IDAT c = true -> snd c <> []) cs ->
  spec_apng_frames cs = Some fr ->
  optimize_from_memory e o bytes = Ok out ->
  out = bytes \/
  exists p', out = output p' /\ output p' = PNG_SIG ++ serialize (output_chunks p') /\
    exists fr', spec_apng_frames (output_chunks p') = Some fr' /\ Forall2 frame_rel fr fr'.
Proof. intros zd zi br clock o bytes out cs fr e. exact (apng_file_to_file e o bytes out cs fr). Qed.
Print Assumptions C13_animation_any_clock.
