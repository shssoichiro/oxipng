(* C11 — Raw-image API encodes exactly the pixels it was given.
   PROVED: the constructor never panics and accepts exactly the consistent argument tuples;
   the PNG it creates is `output` of a candidate image of the pipeline, so C02 (container), C08
   (dimensions) and the provenance theorem apply; attached chunks pass through the same policy /
   preprocess / postprocess functions as C07 and C14.
   PIXELS (C11_created_decodes): the file created for a raw image that means `pic` (the given samples under the given
   colour type, palette or key, depth) is decoded by the specification's whole-file decoder to `pic` - to an alpha-equivalent
   picture under alpha optimisation - with the chunks the caller attached passing the policy (zlib oracle; attached chunk
   names 4 bytes, not IEND/PLTE/tRNS; dimensions below 2^32).
   ALSO: the attached chunks that are written (closed form) and the --scale16 variant of the pixel theorem. *)
From OxiVerif Require Import Base.Common Model.Types Model.Options Model.Headers Model.PngData Model.Optimize Proofs.RobustProofs
  Proofs.PipelineProofs Proofs.EffectProofs.
From OxiVerif Require Import Spec.DecodeFile Proofs.Bridge Proofs.LiftColor Proofs.LiftAlpha Proofs.ContainerOk.

Theorem C11_rejects_not_panics : forall w h c d dat, is_panic (raw_image_new w h c d dat) = false.
Proof. exact raw_image_new_never_panics. Qed.
Print Assumptions C11_rejects_not_panics.

Theorem C11_accepts_iff : forall w h c d dat,
  is_ok (raw_image_new w h c d dat) = true <->
  (match c with Gray _ => True | Indexed _ => d <= 8 | _ => 8 <= d end) /\
  w <> 0 /\ h <> 0 /\ lenZ dat = sat_mul (cdiv (d * channels_per_pixel c * w) 8) h.
Proof. exact raw_image_new_accepts_iff. Qed.
Print Assumptions C11_accepts_iff.

(* the created file serialises an image with the given dimensions that stems from the given one *)
Theorem C11_created_from_candidate : forall e r o out,
  raw_create e r o = Ok out ->
  exists c aux, out = output {| raw := c_image c; idat_data := c_cdata c; aux_chunks := aux; frames := [] |} /\
                width (hdr (c_image c)) = width (hdr (ri_png r)) /\ height (hdr (c_image c)) = height (hdr (ri_png r)).
Proof.
  intros e r o out H. unfold raw_create in H.
  destruct (preprocess_chunks e _ o) as [aux o'].
  destruct (optimize_raw e o' (ri_png r) None) as [[c|]|?|?] eqn:E; cbn [bind] in H; try discriminate.
  injection H as <-. exists c. eexists. split; [reflexivity|].
  apply (emitted_satisfies (fun i => width (hdr i) = width (hdr (ri_png r)) /\ height (hdr i) = height (hdr (ri_png r))) e o' (ri_png r) None c); auto.
  intros b evs Hpr. eapply dims_preserved; eauto.
Qed.
Print Assumptions C11_created_from_candidate.

(* the created file shows the picture the raw image means *)
Theorem C11_created_decodes : forall e o (inflate : list Z -> option (list Z)) r out pic N M,
  scale_16 o = false -> wf (ri_png r) -> sem (ri_png r) = Some pic ->
  0 <= width (hdr (ri_png r)) < 2 ^ 32 -> 0 <= height (hdr (ri_png r)) < 2 ^ 32 ->
  Forall (chunk_ok N) (ri_aux r) -> 0 <= N -> N + 5 <= M -> M + 4 < 2 ^ 31 -> (forall d s, lenZ (z_deflate e d s) <= M) ->
  (forall d s, inflate (z_deflate e d s) = Some s) ->
  raw_create e r o = Ok out ->
  exists pic', spec_decode_png inflate out = Some pic' /\ pic_aequiv pic pic' /\ (optimize_alpha o = false -> pic' = pic).
Proof. exact raw_create_decodes. Qed.
Print Assumptions C11_created_decodes.

(* attached chunks, and the scaled variant *)
From OxiVerif Require Import Proofs.OutputProofs Proofs.ScaledPipeline Proofs.RawFile.

(* "contains the chunks and ICC profile the caller attached subject to the strip policy": the ancillary list written is the attached
   list filtered by the policy, after the ICC decision (C14_decision_table) and the conditional drops (C07_conditional_drops) *)
Theorem C11_created_chunks : forall e r o out, raw_create e r o = Ok out ->
  exists c, out = output {| raw := c_image c; idat_data := c_cdata c;
                            aux_chunks := postprocess_chunks (fst (preprocess_chunks e (List.filter (fun c => strip_keep (strip o) (c_name c)) (ri_aux r)) o))
                                                             (hdr (c_image c)) (hdr (ri_png r));
                            frames := [] |}.
Proof. exact raw_create_chunks. Qed.
Print Assumptions C11_created_chunks.

(* and where they are written (no attached chunk is named IDAT): before PLTE, PLTE / tRNS, after PLTE, IDAT, IEND *)
Theorem C11_written_closed_form : forall p, frames p = [] ->
  Forall (fun c => cname_eqb (c_name c) name_IDAT = false) (aux_chunks p) ->
  output_chunks p =
    (name_IHDR, to_be32 (width (hdr (raw p))) ++ to_be32 (height (hdr (raw p))) ++
                [depth (hdr (raw p)); png_header_code (ctype (hdr (raw p))); 0; 0; if interlaced (hdr (raw p)) then 1 else 0])
    :: map as_pair (List.filter (fun c => negb (after_plte c)) (aux_chunks p))
    ++ key_chunks (hdr (raw p))
    ++ map as_pair (List.filter (write_special (hdr (raw p))) (aux_chunks p))
    ++ [(name_IDAT, idat_data p); (name_IEND, [])].
Proof. exact raw_written_closed_form. Qed.
Print Assumptions C11_written_closed_form.

(* with 16-bit scaling requested (C15): the created file decodes to the picture of the raw samples with every pixel rounded *)
Theorem C11_created_scaled : forall e o (inflate : list Z -> option (list Z)) r out pic N M,
  optimize_alpha o = false -> scale_16 o = true -> bit_depth_reduction o = true -> dl e S16to8 = false ->
  wf (ri_png r) -> sem (ri_png r) = Some pic -> depth (hdr (ri_png r)) = 16 ->
  0 <= width (hdr (ri_png r)) < 2 ^ 32 -> 0 <= height (hdr (ri_png r)) < 2 ^ 32 ->
  Forall (chunk_ok N) (ri_aux r) -> 0 <= N -> N + 5 <= M -> M + 4 < 2 ^ 31 -> (forall d s, lenZ (z_deflate e d s) <= M) ->
  (forall d s, inflate (z_deflate e d s) = Some s) ->
  Forall (fun c => cname_eqb (c_name c) name_acTL = false) (ri_aux r) ->
  raw_create e r o = Ok out ->
  spec_decode_png inflate out = Some (scaled_picture (ri_png r) pic).
Proof. exact raw_create_scaled. Qed.
Print Assumptions C11_created_scaled.
