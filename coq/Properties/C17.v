(* C17 — The smallest completed trial is the one that is emitted.
   PROVED on the evaluator model: whatever the completion order, the candidate returned is a
   received (completed) trial that is minimal under the fixed key
   (estimated size, raw bytes, filter number, later submission first) among ALL received trials,
   and it is the key-minimum of all trials that fit under the initial bound. *)
From OxiVerif Require Import Base.Common Model.Evaluate Proofs.EvalProofs.

(* the order used is a strict total order on trials with distinct (submission, filter) *)
Theorem C17_key_order : (forall a, ~ key_lt a a) /\ (forall a b c, key_lt a b -> key_lt b c -> key_lt a c) /\
  (forall a b, ident a <> ident b -> key_lt a b \/ key_lt b a).
Proof. split; [exact key_lt_irrefl|split; [exact key_lt_trans|exact key_total]]. Qed.
Print Assumptions C17_key_order.

(* the tie rule, unfolded *)
Theorem C17_tie_rule : forall a b, key_lt a b <->
  total a < total b \/ (total a = total b /\
   (tRaw a < tRaw b \/ (tRaw a = tRaw b /\
     (tFilter a < tFilter b \/ (tFilter a = tFilter b /\ tNth b < tNth a))))).
Proof. exact key_lt_unfold. Qed.
Print Assumptions C17_tie_rule.

(* for every schedule: the emitted candidate is received and no received trial beats it *)
Theorem C17_emitted_is_min_of_completed : forall trials init es s m,
  (forall t, In t trials -> 0 <= tK t) -> NoDup (map ident trials) ->
  run trials (init_state trials init) es = Some s -> complete s ->
  min_by_key (received s) = Some m ->
  In m (received s) /\ forall t, In t (received s) -> t = m \/ key_lt m t.
Proof.
  intros trials init es s m HK Hnd Hrun Hc Hm.
  split; [apply min_by_key_In; exact Hm|].
  intros t Ht.
  pose proof (schedule_result_is_best_of trials init es s HK Hnd Hrun Hc) as Hb.
  rewrite Hm in Hb. pose proof (best_of_spec init trials Hnd) as Hs. rewrite <- Hb in Hs.
  destruct Hs as (_ & _ & Hmin).
  destruct (received_eligible trials init es s t HK Hrun Ht) as [Hin Hel]. apply Hmin; auto.
Qed.
Print Assumptions C17_emitted_is_min_of_completed.

(* and it is the minimum of everything that could have completed under the initial bound *)
Theorem C17_emitted_is_best_eligible : forall trials init es s,
  (forall t, In t trials -> 0 <= tK t) -> NoDup (map ident trials) ->
  run trials (init_state trials init) es = Some s -> complete s ->
  match min_by_key (received s) with
  | Some m => In m trials /\ eligible init m = true /\
              forall t, In t trials -> eligible init t = true -> t = m \/ key_lt m t
  | None => forall t, In t trials -> eligible init t = false
  end.
Proof.
  intros trials init es s HK Hnd Hrun Hc.
  rewrite (schedule_result_is_best_of trials init es s HK Hnd Hrun Hc).
  apply best_of_spec. exact Hnd.
Qed.
Print Assumptions C17_emitted_is_best_eligible.
