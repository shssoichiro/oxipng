(* C03 — Alpha optimisation may only change colour under fully transparent pixels.
   PROVED: the relation is an equivalence on pixels, reflexive and transitive on pictures; per pixel, any recolouring of a fully
   transparent pixel (including its replacement by a colour-key sample) is alpha-equivalent; AT IMAGE LEVEL
   (every size, interlaced or not) each alpha-optimising transformation - blackening of transparent pixels,
   alpha-channel removal with an unused colour as key, palette condensation with merged transparent entries,
   indexed->channels - maps a well-formed image that means `pic` to a well-formed image that means a picture
   alpha-equivalent to `pic`; and the whole reduction pipeline, with or without alpha optimisation, keeps every
   candidate alpha-equivalent to the input (C03_reductions_alpha_partial; nothing assumed about the reductions).
   THE FILTER-SPECIFIC REWRITE of optimize_alpha is proved too: each rewritten scan line differs from the line only in
   the colour bytes of fully transparent pixels (C03_alpha_line), the stream filter_image writes with the optimisation
   on decodes under the specification to a picture alpha-equivalent to the image's (C03_filter_alpha_stream, all ten
   strategies, any Brute oracle), and the stream compressed into the emitted IDAT decodes to a picture alpha-equivalent
   to the input's (C03_emitted_stream_alpha_partial).
   FILE TO FILE: what optimize_from_memory returns for a valid input decodes to a picture alpha-equivalent to the input file's
   (C03_file_to_file_partial under container_ok; C03_file_to_file with that derived from the input). *)
From OxiVerif Require Import Base.Common Spec.Adam7 Spec.Sem Model.Types Model.Options Model.Color Model.Palette Model.Reductions Model.Optimize
  Proofs.Bridge Proofs.PixelProofs Proofs.ImageLift Proofs.LiftColor Proofs.LiftAlpha Proofs.PipelineLossless Spec.Decode Spec.DecodeFile
  Model.Filters Model.Headers Model.PngData Proofs.AlphaLine Proofs.AlphaStream Proofs.EmittedStream Proofs.FileToFile Proofs.ContainerOk.

Theorem C03_partial_transparent_rgba : forall d r g b r' g' b',
  match color_of_samples SRGBA d [r; g; b; 0], color_of_samples SRGBA d [r'; g'; b'; 0] with
  | Some p, Some q => rgba_alpha_equivb p q = true
  | _, _ => False
  end.
Proof. exact pixel_transparent_rgba. Qed.
Print Assumptions C03_partial_transparent_rgba.

Theorem C03_partial_transparent_gray_alpha : forall d v v',
  match color_of_samples SGrayAlpha d [v; 0], color_of_samples SGrayAlpha d [v'; 0] with
  | Some p, Some q => rgba_alpha_equivb p q = true
  | _, _ => False
  end.
Proof. exact pixel_transparent_gray_alpha. Qed.
Print Assumptions C03_partial_transparent_gray_alpha.

Theorem C03_partial_transparent_to_key : forall d v t, 0 <= t < 2 ^ d -> 0 < d ->
  match color_of_samples SGrayAlpha d [v; 0], color_of_samples (SGray (Some t)) d [t] with
  | Some p, Some q => rgba_alpha_equivb p q = true
  | _, _ => False
  end.
Proof. exact pixel_transparent_to_key_gray. Qed.
Print Assumptions C03_partial_transparent_to_key.

Theorem C03_alpha_equiv_is_equivalence :
  (forall p, rgba_alpha_equivb p p = true) /\
  (forall p q, rgba_alpha_equivb p q = true -> rgba_alpha_equivb q p = true) /\
  (forall p q s, rgba_alpha_equivb p q = true -> rgba_alpha_equivb q s = true -> rgba_alpha_equivb p s = true).
Proof. split; [exact rgba_alpha_equivb_refl|split; [exact rgba_alpha_equivb_sym|exact rgba_alpha_equivb_trans]]. Qed.
Print Assumptions C03_alpha_equiv_is_equivalence.

(* image level *)
Theorem C03_picture_equiv_is_equivalence :
  (forall p, pic_aequiv p p) /\ (forall p q r, pic_aequiv p q -> pic_aequiv q r -> pic_aequiv p r).
Proof. split; [exact pic_aequiv_refl|exact pic_aequiv_trans]. Qed.
Print Assumptions C03_picture_equiv_is_equivalence.

Theorem C03_image_cleaned_alpha : forall img img' pic, wf img ->
  cleaned_alpha_channel img = Some img' -> sem img = Some pic ->
  (exists pic', sem img' = Some pic' /\ pic_aequiv pic pic') /\ wf img'.
Proof. exact cleaned_alpha_channel_aequiv. Qed.
Print Assumptions C03_image_cleaned_alpha.

Theorem C03_image_alpha_to_key : forall img img' pic, wf img ->
  reduced_alpha_channel img true = Some img' -> sem img = Some pic ->
  (exists pic', sem img' = Some pic' /\ pic_aequiv pic pic') /\ wf img'.
Proof. exact reduced_alpha_channel_aequiv. Qed.
Print Assumptions C03_image_alpha_to_key.

Theorem C03_image_reduced_palette : forall img img' pic, wf img ->
  reduced_palette img true = Some img' -> sem img = Some pic ->
  (exists pic', sem img' = Some pic' /\ pic_aequiv pic pic') /\ wf img'.
Proof. exact reduced_palette_aequiv. Qed.
Print Assumptions C03_image_reduced_palette.

Theorem C03_image_indexed_to_channels : forall img img' allow_gray pic, wf img ->
  indexed_to_channels img allow_gray true = Some img' -> sem img = Some pic ->
  (exists pic', sem img' = Some pic' /\ pic_aequiv pic pic') /\ wf img'.
Proof. exact indexed_to_channels_aequiv. Qed.
Print Assumptions C03_image_indexed_to_channels.

(* the lifting principle: pixelwise alpha-equivalent byte-aligned images decode to alpha-equivalent pictures *)
Theorem C03_lift_aequiv : forall w h il pc pc' (B B' : nat) (pxs pxs' : list (list Z)) pic,
  (0 < B)%nat -> (0 < B')%nat ->
  Forall (fun px => length px = B) pxs -> Forall (fun px => length px = B') pxs' ->
  Forall2 (fun px px' => aequiv (pc (sbits_of_bytes px)) (pc' (sbits_of_bytes px'))) pxs pxs' ->
  gsem w h (8 * Z.of_nat B) il pc (concat pxs) = Some pic ->
  exists pic', gsem w h (8 * Z.of_nat B') il pc' (concat pxs') = Some pic' /\ pic_aequiv pic pic'.
Proof. exact aequiv_gsem. Qed.
Print Assumptions C03_lift_aequiv.

(* the reduction pipeline, alpha optimisation on or off *)
Theorem C03_reductions_alpha_partial : forall e o img pic baseline evs,
  scale_16 o = false ->
  ameans pic img ->
  perform_reductions e o img = Ok (baseline, evs) ->
  ameans pic baseline /\ Forall (cand_ameans pic) evs.
Proof. exact perform_reductions_alpha_partial. Qed.
Print Assumptions C03_reductions_alpha_partial.

Theorem C03_emitted_alpha_partial : forall e o img max_size c pic,
  scale_16 o = false -> ameans pic img ->
  optimize_raw e o img max_size = Ok (Some c) -> ameans pic (c_image c).
Proof. exact optimize_raw_alpha_partial. Qed.
Print Assumptions C03_emitted_alpha_partial.

(* one scan line under optimize_alpha: same length, bytes, and pixel by pixel either unchanged or a fully transparent pixel
   whose alpha bytes are kept *)
Theorem C03_alpha_line : forall (bpp cb : nat) f data prev k,
  (cb <= bpp)%nat -> (0 < bpp)%nat ->
  length data = (k * bpp)%nat -> length prev = length data -> bytes_ok data -> bytes_ok prev -> (1 <= k)%nat ->
  let data' := optimize_alpha_line f bpp data prev cb in
  length data' = length data /\ bytes_ok data' /\
  Forall2 (fun px px' => px' = px \/ (all_zero (skipn cb px) = true /\ skipn cb px' = skipn cb px /\ length px' = length px /\ bytes_ok px'))
          (chunks_exact bpp data) (chunks_exact bpp data').
Proof. intros bpp cb f data prev k Hcb Hb Hl Hp Hd Hpv Hk. exact (optimize_alpha_line_rel bpp cb Hcb Hb f data prev k Hl Hp Hd Hpv Hk). Qed.
Print Assumptions C03_alpha_line.

Theorem C03_filter_alpha_stream : forall brute (img : image) f stream pic,
  wf img -> sem img = Some pic -> has_alpha (ctype (hdr img)) = true ->
  filter_image brute img f true = Ok stream ->
  exists pic', spec_decode_stream (width (hdr img)) (height (hdr img)) (spec_color_of (ctype (hdr img))) (depth (hdr img)) (interlaced (hdr img)) stream = Some pic'
    /\ pic_aequiv pic pic'.
Proof. exact filter_image_alpha_decodes. Qed.
Print Assumptions C03_filter_alpha_stream.

Theorem C03_emitted_stream_alpha_partial : forall e o img max_size c pic,
  scale_16 o = false -> ameans pic img ->
  optimize_raw e o img max_size = Ok (Some c) ->
  exists d stream pic', c_cdata c = z_deflate e d stream /\
    spec_decode_stream (width (hdr (c_image c))) (height (hdr (c_image c))) (spec_color_of (ctype (hdr (c_image c))))
                       (depth (hdr (c_image c))) (interlaced (hdr (c_image c))) stream = Some pic' /\
    pic_aequiv pic pic'.
Proof. exact emitted_stream_alpha_partial. Qed.
Print Assumptions C03_emitted_stream_alpha_partial.

(* FILE TO FILE with alpha optimisation allowed: the in-memory entry point returns the input bytes or the serialisation of a PngData
   that the specification's whole-file decoder maps to a picture alpha-equivalent to the one it decodes from the input file *)
Theorem C03_file_to_file_partial : forall e o (inflate : list Z -> option (list Z)) bytes out pic nm ih rest,
  scale_16 o = false ->
  bytes_ok bytes ->
  spec_parse_png bytes = Some ((nm, ih) :: rest) ->
  spec_decode_chunks inflate ((nm, ih) :: rest) = Some pic ->
  List.filter (named spec_IHDR) rest = [] ->
  (length (List.filter (named spec_PLTE) rest) <= 1)%nat -> (length (List.filter (named spec_tRNS) rest) <= 1)%nat ->
  (forall x n y, z_inflate e x n = Ok y -> inflate x = Some y /\ bytes_ok y) ->
  (forall d s, inflate (z_deflate e d s) = Some s) ->
  (forall p, from_slice e bytes o = Ok p ->
     spec_raw_size (width (hdr (raw p))) (height (hdr (raw p))) (bpp (hdr (raw p))) (interlaced (hdr (raw p))) true <= usize_max /\
     wf_ctype (ctype (hdr (raw p))) (depth (hdr (raw p)))) ->
  optimize_from_memory e o bytes = Ok out ->
  out = bytes \/ exists p', out = output p' /\
    (container_ok p' -> exists pic', spec_decode_png inflate (output p') = Some pic' /\ pic_aequiv pic pic').
Proof. intros e o inflate bytes out pic nm ih rest Hs Hok Hparse Hdec H1 H2 H3 Hz Hzd Hside H. exact (optimize_from_memory_alpha_partial e o inflate bytes out pic nm ih rest Hok Hparse Hdec H1 H2 H3 Hz Hzd Hside H Hs). Qed.
Print Assumptions C03_file_to_file_partial.

(* THE FULL STATEMENT of C03 on the model, container conditions derived from the input *)
Theorem C03_file_to_file : forall e o (inflate : list Z -> option (list Z)) bytes out pic nm ih rest M,
  scale_16 o = false ->
  bytes_ok bytes -> lenZ bytes + 5 <= M -> M + 4 < 2 ^ 31 -> (forall d s, lenZ (z_deflate e d s) <= M) ->
  spec_parse_png bytes = Some ((nm, ih) :: rest) ->
  spec_decode_chunks inflate ((nm, ih) :: rest) = Some pic ->
  List.filter (named spec_IHDR) rest = [] ->
  (length (List.filter (named spec_PLTE) rest) <= 1)%nat -> (length (List.filter (named spec_tRNS) rest) <= 1)%nat ->
  (forall x n y, z_inflate e x n = Ok y -> inflate x = Some y /\ bytes_ok y) ->
  (forall d s, inflate (z_deflate e d s) = Some s) ->
  (forall p, from_slice e bytes o = Ok p ->
     spec_raw_size (width (hdr (raw p))) (height (hdr (raw p))) (bpp (hdr (raw p))) (interlaced (hdr (raw p))) true <= usize_max /\
     wf_ctype (ctype (hdr (raw p))) (depth (hdr (raw p)))) ->
  optimize_from_memory e o bytes = Ok out ->
  exists pic', spec_decode_png inflate out = Some pic' /\ pic_aequiv pic pic'.
Proof.
  intros e o inflate bytes out pic nm ih rest M Hs Hok HM HM2 Hdefl Hparse Hdec H1 H2 H3 Hz Hzd Hside H.
  exact (optimize_from_memory_alpha e o inflate bytes out pic nm ih rest Hok Hparse Hdec H1 H2 H3 Hz Hzd Hside H M Hs HM HM2 Hdefl).
Qed.
Print Assumptions C03_file_to_file.
