(* C07 / C10 file to file: which chunks of the input file from_slice keeps (a closed formula over the parsed chunk list), and how
   they reach the output file through preprocess_chunks, postprocess_chunks and PngData::output. *)
From OxiVerif Require Import Base.Common Base.ListFacts Spec.Decode Model.Types Model.Options Model.Headers Model.PngData Model.Optimize
  Proofs.RobustProofs Proofs.ChunkProofs Proofs.ApngProofs Proofs.OutputProofs Proofs.InputParse Proofs.ContainerOk.
Local Open Scope Z_scope.

Definition anim_name (n : cname) : bool := cname_eqb n name_acTL || cname_eqb n name_fcTL || cname_eqb n name_fdAT.
Definition all_anim_kept (o : options) : bool :=
  strip_keep (strip o) name_acTL && strip_keep (strip o) name_fcTL && strip_keep (strip o) name_fdAT.
Definition key_name (n : cname) : bool :=
  cname_eqb n name_IDAT || cname_eqb n name_IHDR || cname_eqb n name_PLTE || cname_eqb n name_tRNS.
Definition isnil {A} (l : list A) : bool := match l with [] => true | _ => false end.

(* the ancillary list from_slice builds: a marker where the image data starts, then every chunk that is not one of the four
   picture-defining chunks, is kept by the strip policy, is not a C2PA manifest, and is not a frame chunk of the animation (fcTL
   after the image data started, fdAT); animation chunks only if all three kinds are kept.  [idat_empty]: no image data so far *)
Fixpoint collect_aux (o : options) (idat_empty : bool) (cs : list chunk) : list chunk :=
  match cs with
  | [] => []
  | c :: t =>
      let n := c_name c in
      if cname_eqb n name_IDAT then
        (if idat_empty then [{| c_name := n; c_data := [] |}] else []) ++ collect_aux o (idat_empty && isnil (c_data c)) t
      else if key_name n then collect_aux o idat_empty t
      else if negb (strip_keep (strip o) n) then collect_aux o idat_empty t
      else if anim_name n && negb (all_anim_kept o) then collect_aux o idat_empty t
      else if is_c2pa n (c_data c) then collect_aux o idat_empty t
      else if cname_eqb n name_fdAT || (cname_eqb n name_fcTL && negb idat_empty) then collect_aux o idat_empty t
      else c :: collect_aux o idat_empty t
  end.

Lemma isnil_app {A} (a b : list A) : isnil (a ++ b) = isnil a && isnil b.
Proof. destruct a; reflexivity. Qed.

(* kept by the policy as an ancillary chunk: not picture-defining, kept by the strip policy, animation chunks only all together,
   not a C2PA manifest; frame chunks (fdAT, fcTL once the image data started) go to the frame list instead *)
Definition kept0 (o : options) (c : chunk) : bool :=
  negb (key_name (c_name c)) && strip_keep (strip o) (c_name c) && negb (anim_name (c_name c) && negb (all_anim_kept o))
  && negb (is_c2pa (c_name c) (c_data c)).
Definition kept_at (o : options) (idat_empty : bool) (c : chunk) : bool :=
  kept0 o c && negb (cname_eqb (c_name c) name_fdAT || (cname_eqb (c_name c) name_fcTL && negb idat_empty)).

(* collect_aux one chunk at a time: the marker for image data, otherwise the chunk if it is kept *)
Lemma collect_aux_unfold o ie c t :
  collect_aux o ie (c :: t) =
  if cname_eqb (c_name c) name_IDAT
  then (if ie then [{| c_name := c_name c; c_data := [] |}] else []) ++ collect_aux o (ie && isnil (c_data c)) t
  else (if kept_at o ie c then [c] else []) ++ collect_aux o ie t.
Proof.
  cbn [collect_aux]. unfold kept_at, kept0. destruct (cname_eqb (c_name c) name_IDAT); [reflexivity|].
  destruct (key_name (c_name c)); [reflexivity|]. destruct (strip_keep (strip o) (c_name c)); [|reflexivity].
  destruct (anim_name (c_name c) && negb (all_anim_kept o)); [reflexivity|]. destruct (is_c2pa (c_name c) (c_data c)); [reflexivity|].
  destruct (cname_eqb (c_name c) name_fdAT || cname_eqb (c_name c) name_fcTL && negb ie); reflexivity.
Qed.

Lemma collect_aux_one o ie c : cname_eqb (c_name c) name_IDAT = false ->
  collect_aux o ie [c] = if kept_at o ie c then [c] else [].
Proof. intros E. rewrite collect_aux_unfold, E. apply app_nil_r. Qed.

Lemma collect_aux_cons o ie c t :
  collect_aux o ie (c :: t) = collect_aux o ie [c] ++ collect_aux o (if cname_eqb (c_name c) name_IDAT then ie && isnil (c_data c) else ie) t.
Proof. rewrite !collect_aux_unfold. destruct (cname_eqb (c_name c) name_IDAT); rewrite app_nil_r; reflexivity. Qed.

(* RobustProofs.from_slice_step_spec in the vocabulary of this file: collect_aux on the one chunk, kept0 *)
Lemma step_spec o st c st1 : from_slice_step o st c = Ok st1 ->
  let ie := isnil (fs_idat st) in
  fs_aux st1 = rev (collect_aux o ie [c]) ++ fs_aux st /\
  isnil (fs_idat st1) = (if cname_eqb (c_name c) name_IDAT then ie && isnil (c_data c) else ie) /\
  if kept0 o c && (cname_eqb (c_name c) name_fcTL || cname_eqb (c_name c) name_fdAT) then
    (4 <= length (c_data c))%nat /\ be32_of (c_data c) = fs_seq st /\ fs_seq st1 = fs_seq st + 1 /\
    (if cname_eqb (c_name c) name_fdAT then push_fdat (fs_frames st) (skipn 4 (c_data c)) = Some (fs_frames st1)
     else if ie then fs_frames st1 = fs_frames st
     else exists f, frame_from_fctl (c_data c) = Ok f /\ fs_frames st1 = f :: fs_frames st)
  else fs_seq st1 = fs_seq st /\ fs_frames st1 = fs_frames st.
Proof.
  intros H. pose proof (from_slice_step_spec o st c) as K. rewrite H in K. destruct K as (Ei & _ & _ & _ & Ea & Ef).
  split; [|split; [|exact Ef]].
  - rewrite Ea, collect_aux_unfold. f_equal. change (_ && negb (_ || _ && negb _)) with (kept_at o (isnil (fs_idat st)) c).
    destruct (cname_eqb (c_name c) name_IDAT); [destruct (fs_idat st)|destruct (kept_at _ _ c)]; reflexivity.
  - rewrite Ei. destruct (cname_eqb (c_name c) name_IDAT); [apply isnil_app|reflexivity].
Qed.

Lemma step_aux o st c st1 : from_slice_step o st c = Ok st1 ->
  fs_aux st1 = rev (collect_aux o (isnil (fs_idat st)) [c]) ++ fs_aux st /\
  isnil (fs_idat st1) = (if cname_eqb (c_name c) name_IDAT then isnil (fs_idat st) && isnil (c_data c) else isnil (fs_idat st)).
Proof. intros H. destruct (step_spec o st c st1 H) as (A & B & _). exact (conj A B). Qed.

Theorem fold_aux o : forall cs st st', fold_steps o st cs = Ok st' ->
  rev (fs_aux st') = rev (fs_aux st) ++ collect_aux o (isnil (fs_idat st)) cs.
Proof.
  induction cs as [|c t IH]; intros st st' H; cbn [fold_steps] in H.
  - injection H as <-. cbn. rewrite app_nil_r. reflexivity.
  - destruct (from_slice_step o st c) as [st1|?|?] eqn:Es; cbn [bind] in H; try discriminate.
    destruct (step_aux o st c st1 Es) as [A1 A2]. rewrite (IH st1 st' H), A1, A2, rev_app_distr, rev_involutive, <- app_assoc.
    rewrite (collect_aux_cons o _ c t). reflexivity.
Qed.

Theorem from_slice_aux e o bytes p cs : bytes_ok bytes ->
  from_slice e bytes o = Ok p -> spec_parse_png bytes = Some cs ->
  aux_chunks p = collect_aux o true (map as_chunk (removelast cs)).
Proof.
  intros Hok H Hparse. destruct (from_slice_parsed e o bytes p cs Hok H Hparse) as (st & ih & hd & img & Efold & _ & _ & _ & _ & ->).
  exact (fold_aux o _ _ _ Efold).
Qed.

Definition is_key_pair (c : cname * list Z) : bool :=
  cname_eqb (fst c) name_IHDR || cname_eqb (fst c) name_PLTE || cname_eqb (fst c) name_tRNS || cname_eqb (fst c) name_IDAT
  || cname_eqb (fst c) name_IEND.

(* everything in the written chunk sequence that is not IHDR / PLTE / tRNS / IDAT / IEND, split at the image data *)
Definition written_before (p : pngdata) : list (cname * list Z) :=
  let parts := split_idat (aux_chunks p) [] in
  let aux_pre := match parts with x :: _ => x | [] => [] end in
  map as_pair (List.filter (fun c => negb (after_plte c)) aux_pre) ++ map as_pair (List.filter (write_special (hdr (raw p))) aux_pre).
Definition written_after (p : pngdata) : list (cname * list Z) :=
  let parts := split_idat (aux_chunks p) [] in
  let aux_pre := match parts with x :: _ => x | [] => [] end in
  let aux_post := match parts with _ :: t => t | [] => [] end in
  frame_chunk_list (frames p) (lenZ (List.filter (fun c => cname_eqb (c_name c) name_fcTL) (List.filter (write_special (hdr (raw p))) aux_pre)))
  ++ map as_pair (concat aux_post).

Lemma output_chunks_layout p :
  output_chunks p =
    (name_IHDR, to_be32 (width (hdr (raw p))) ++ to_be32 (height (hdr (raw p))) ++
                [depth (hdr (raw p)); png_header_code (ctype (hdr (raw p))); 0; 0; if interlaced (hdr (raw p)) then 1 else 0])
    :: map as_pair (List.filter (fun c => negb (after_plte c)) (match split_idat (aux_chunks p) [] with x :: _ => x | [] => [] end))
    ++ key_chunks (hdr (raw p))
    ++ map as_pair (List.filter (write_special (hdr (raw p))) (match split_idat (aux_chunks p) [] with x :: _ => x | [] => [] end))
    ++ (name_IDAT, idat_data p) :: written_after p ++ [(name_IEND, [])].
Proof. unfold output_chunks, written_after. cbn zeta. cbn [app]. f_equal. rewrite <- !app_assoc. reflexivity. Qed.

Lemma optimize_png_data_aux e o p p' : optimize_png_data e p o = Ok p' ->
  let aux1 := fst (preprocess_chunks e (aux_chunks p) o) in
  (p' = {| raw := raw p; idat_data := idat_data p; aux_chunks := aux1; frames := frames p |} \/
   aux_chunks p' = postprocess_chunks aux1 (hdr (raw p')) (hdr (raw p))) /\
  Forall2 (fun a b => same_frame_fields a b /\ (f_data b = f_data a \/ lenZ (f_data b) < lenZ (f_data a))) (frames p) (frames p').
Proof.
  intros H. destruct (optimize_png_data_cases e p o p' H) as [->|(ms & c & fr & _ & Efr & ->)]; cbn zeta.
  - split; [left; reflexivity|]. apply Forall2_same. intros a. split; [apply same_frame_fields_refl|left; reflexivity].
  - split; [right; reflexivity|]. exact (recompress_frames_top e _ _ _ fr Efr).
Qed.

Theorem chunk_flow e o bytes out cs : bytes_ok bytes ->
  spec_parse_png bytes = Some cs -> optimize_from_memory e o bytes = Ok out ->
  out = bytes \/
  exists p p', from_slice e bytes o = Ok p /\ optimize_png_data e p o = Ok p' /\ out = output p' /\
    output p' = PNG_SIG ++ serialize (output_chunks p') /\
    let aux0 := collect_aux o true (map as_chunk (removelast cs)) in
    let aux1 := fst (preprocess_chunks e aux0 o) in
    aux_chunks p = aux0 /\
    (aux_chunks p' = aux1 \/ aux_chunks p' = postprocess_chunks aux1 (hdr (raw p')) (hdr (raw p))) /\
    Forall2 (fun a b => same_frame_fields a b /\ (f_data b = f_data a \/ lenZ (f_data b) < lenZ (f_data a))) (frames p) (frames p').
Proof.
  intros Hok Hparse H. destruct (optimize_from_memory_cases e o bytes out H) as (p & Ep & [->|(p' & Eo & ->)]); [left; reflexivity|right].
  exists p, p'. split; [exact Ep|]. split; [exact Eo|]. split; [reflexivity|]. split; [apply output_is_serialize|].
  pose proof (from_slice_aux e o bytes p cs Hok Ep Hparse) as A. cbn zeta. rewrite <- A.
  destruct (optimize_png_data_aux e o p p' Eo) as [[E|E] F]; (split; [reflexivity|split; [|exact F]]).
  - left. rewrite E. reflexivity.
  - right. exact E.
Qed.

Lemma kept_at_idat o ie c : cname_eqb (c_name c) name_IDAT = true -> kept_at o ie c = false.
Proof. intros E. unfold kept_at, kept0, key_name. rewrite E. reflexivity. Qed.

Lemma collect_aux_before o ie l r : Forall (fun c => cname_eqb (c_name c) name_IDAT = false) l ->
  collect_aux o ie (l ++ r) = List.filter (kept_at o ie) l ++ collect_aux o ie r.
Proof.
  induction 1 as [|c t Hc _ IH]; [reflexivity|]. cbn [app List.filter]. rewrite collect_aux_unfold, Hc, IH. destruct (kept_at o ie c); reflexivity.
Qed.

Lemma collect_aux_after o l : collect_aux o false l = List.filter (kept_at o false) l.
Proof.
  induction l as [|c t IH]; [reflexivity|]. rewrite collect_aux_unfold. cbn [List.filter andb]. rewrite IH.
  destruct (cname_eqb (c_name c) name_IDAT) eqn:E; [rewrite (kept_at_idat o false c E)|destruct (kept_at o false c)]; reflexivity.
Qed.

(* the ancillary list of a file whose image data starts with a non-empty IDAT chunk: the kept chunks before it, the marker, the
   kept chunks after it - each exactly once, in the order of the file *)
Theorem collect_aux_closed_form o before idat after :
  Forall (fun c => cname_eqb (c_name c) name_IDAT = false) before ->
  cname_eqb (c_name idat) name_IDAT = true -> c_data idat <> [] ->
  collect_aux o true (before ++ idat :: after)
  = List.filter (kept_at o true) before ++ {| c_name := c_name idat; c_data := [] |} :: List.filter (kept_at o false) after.
Proof.
  intros Hb Hi Hd. rewrite collect_aux_before by exact Hb. f_equal. rewrite collect_aux_unfold, Hi.
  destruct (c_data idat); [contradiction|]. cbn [isnil andb app]. rewrite collect_aux_after. reflexivity.
Qed.

(* nothing is invented: every entry is the marker or a chunk of the file kept by the policy *)
Theorem collect_aux_in o : forall cs ie c, In c (collect_aux o ie cs) ->
  (cname_eqb (c_name c) name_IDAT = true /\ c_data c = []) \/ (In c cs /\ kept0 o c = true).
Proof.
  induction cs as [|x t IH]; intros ie c H; [destruct H|]. rewrite collect_aux_cons in H. apply in_app_or in H. destruct H as [H|H].
  - rewrite collect_aux_unfold, !app_nil_r in H. destruct (cname_eqb (c_name x) name_IDAT) eqn:E.
    + destruct ie; [|destruct H]. destruct H as [<-|[]]. left. split; [exact E|reflexivity].
    + destruct (kept_at o ie x) eqn:K; [|destruct H]. destruct H as [<-|[]].
      right. split; [left; reflexivity|]. unfold kept_at in K. apply andb_true_iff in K. apply K.
  - destruct (IH _ _ H) as [L|[L K]]; [left; exact L|right; split; [right; exact L|exact K]].
Qed.

(* chunks that are not IDAT are only put aside *)
Lemma split_idat_skip pre l : forall cur, Forall (fun c => cname_eqb (c_name c) name_IDAT = false) pre ->
  split_idat (pre ++ l) cur = split_idat l (rev pre ++ cur).
Proof.
  induction pre as [|c t IH]; intros cur H; [reflexivity|]. apply Forall_cons_iff in H. destruct H as [Hc Ht].
  cbn [app split_idat rev]. rewrite Hc, IH, <- app_assoc by exact Ht. reflexivity.
Qed.

Lemma split_idat_no_idat l cur : Forall (fun c => cname_eqb (c_name c) name_IDAT = false) l ->
  split_idat l cur = [rev cur ++ l].
Proof.
  intros H. rewrite <- (app_nil_r l) at 1. rewrite split_idat_skip by exact H. cbn [split_idat]. rewrite rev_app_distr, rev_involutive. reflexivity.
Qed.

(* a PngData whose ancillary list is  pre ++ marker :: post  writes, around the picture-defining chunks:
   before the image data  the chunks of pre that go before PLTE, then (after PLTE/tRNS) those that must follow it;
   after the image data   the frames, then post *)
Theorem written_closed_form p pre m post :
  aux_chunks p = pre ++ m :: post ->
  Forall (fun c => cname_eqb (c_name c) name_IDAT = false) pre -> cname_eqb (c_name m) name_IDAT = true ->
  Forall (fun c => cname_eqb (c_name c) name_IDAT = false) post ->
  output_chunks p =
    (name_IHDR, to_be32 (width (hdr (raw p))) ++ to_be32 (height (hdr (raw p))) ++
                [depth (hdr (raw p)); png_header_code (ctype (hdr (raw p))); 0; 0; if interlaced (hdr (raw p)) then 1 else 0])
    :: map as_pair (List.filter (fun c => negb (after_plte c)) pre)
    ++ key_chunks (hdr (raw p))
    ++ map as_pair (List.filter (write_special (hdr (raw p))) pre)
    ++ (name_IDAT, idat_data p)
    :: frame_chunk_list (frames p) (lenZ (List.filter (fun c => cname_eqb (c_name c) name_fcTL) (List.filter (write_special (hdr (raw p))) pre)))
    ++ map as_pair post ++ [(name_IEND, [])].
Proof.
  intros E Hp Hm Hq. rewrite output_chunks_layout. unfold written_after.
  rewrite E, split_idat_skip by exact Hp. cbn [split_idat]. rewrite Hm, split_idat_no_idat by exact Hq.
  cbn [rev app concat]. rewrite !app_nil_r, rev_involutive, <- !app_assoc. reflexivity.
Qed.

Definition pp_keep (hd orig : ihdr) (c : chunk) : bool :=
  (if negb (depth orig =? depth hd) || negb (color_type_eqb (ctype orig) (ctype hd))
   then negb (cname_eqb (c_name c) name_bKGD || cname_eqb (c_name c) name_sBIT || cname_eqb (c_name c) name_hIST) else true)
  && (if negb (Bool.eqb (is_gray (ctype orig)) (is_gray (ctype hd)))
      then negb (cname_eqb (c_name c) name_sRGB || cname_eqb (c_name c) name_iCCP) else true).

Lemma postprocess_is_filter aux hd orig : postprocess_chunks aux hd orig = List.filter (pp_keep hd orig) aux.
Proof.
  rewrite postprocess_spec. apply filter_ext. intros c. unfold pp_keep, droppable_on_format_change, droppable_on_gray_change.
  destruct (negb (depth orig =? depth hd) || negb (color_type_eqb (ctype orig) (ctype hd)));
    destruct (negb (Bool.eqb (is_gray (ctype orig)) (is_gray (ctype hd)))); reflexivity.
Qed.

(* the only chunks the processing of the ancillary list drops or replaces have one of five names *)
Definition processed (n : cname) : bool := droppable_on_format_change n || droppable_on_gray_change n.

Lemma pp_keep_false hd orig c : pp_keep hd orig c = false -> processed (c_name c) = true.
Proof.
  unfold pp_keep, processed, droppable_on_format_change, droppable_on_gray_change.
  destruct (negb (depth orig =? depth hd) || negb (color_type_eqb (ctype orig) (ctype hd)));
    destruct (negb (Bool.eqb (is_gray (ctype orig)) (is_gray (ctype hd))));
    destruct (cname_eqb (c_name c) name_bKGD || cname_eqb (c_name c) name_sBIT || cname_eqb (c_name c) name_hIST);
    destruct (cname_eqb (c_name c) name_sRGB || cname_eqb (c_name c) name_iCCP); cbn; congruence.
Qed.

Lemma processed_other n m : processed n = true -> processed m = false -> cname_eqb n m = false.
Proof. intros Hn Hm. destruct (cname_eqb n m) eqn:E; [|reflexivity]. apply cname_eqb_eq in E. congruence. Qed.

Lemma filter_postprocess (f : chunk -> bool) aux hd orig : (forall c, processed (c_name c) = true -> f c = false) ->
  List.filter f (postprocess_chunks aux hd orig) = List.filter f aux.
Proof.
  intros N. rewrite postprocess_is_filter, filter_filter. apply filter_ext. intros c.
  destruct (pp_keep hd orig c) eqn:K; [reflexivity|]. rewrite (N c (pp_keep_false _ _ _ K)). reflexivity.
Qed.

Lemma filter_preprocess (f : chunk -> bool) e aux o : (forall c, processed (c_name c) = true -> f c = false) ->
  List.filter f (fst (preprocess_chunks e aux o)) = List.filter f aux.
Proof.
  intros N. apply preprocess_keeps_filter. intros c [E|E]; apply N; rewrite E; reflexivity.
Qed.

Lemma postprocess_around_marker pre m post hd orig : cname_eqb (c_name m) name_IDAT = true ->
  postprocess_chunks (pre ++ m :: post) hd orig = List.filter (pp_keep hd orig) pre ++ m :: List.filter (pp_keep hd orig) post.
Proof.
  intros Hm. rewrite postprocess_is_filter, filter_app. cbn [List.filter]. destruct (pp_keep hd orig m) eqn:K; [reflexivity|].
  rewrite (processed_other _ name_IDAT (pp_keep_false _ _ _ K) eq_refl) in Hm. discriminate.
Qed.

(* written_before is, by its definition, some list cut into the chunks written before PLTE and those written after it; the statement
   does not say which list. That the cut changes the order the chunks had is the instance below (finding F9). *)
Theorem written_before_two_classes p : exists pre,
  written_before p = map as_pair (List.filter (fun c => negb (after_plte c)) pre) ++ map as_pair (List.filter (write_special (hdr (raw p))) pre).
Proof. eexists. reflexivity. Qed.

Definition f9_png : pngdata :=
  {| raw := {| hdr := {| width := 1; height := 1; ctype := RGB None; depth := 8; interlaced := false |}; data := [0; 0; 0] |};
     idat_data := []; aux_chunks := [{| c_name := name_bKGD; c_data := [0; 0; 0; 0; 0; 0] |}; {| c_name := [112; 72; 89; 115]; c_data := [0; 0; 0; 1; 0; 0; 0; 1; 0] |};
                                     {| c_name := name_IDAT; c_data := [] |}];
     frames := [] |}.

Theorem written_order_refuted :
  map fst (map as_pair (match split_idat (aux_chunks f9_png) [] with x :: _ => x | [] => [] end)) = [name_bKGD; [112; 72; 89; 115]] /\
  map fst (written_before f9_png) = [[112; 72; 89; 115]; name_bKGD].
Proof. vm_compute. split; reflexivity. Qed.
