(* Image-level semantic theorems for the sub-byte transformations (C01): expanded_bit_depth_to_8
   and reduced_bit_depth_8_or_less, through the line-wise lifting theorem of LiftLines.v.  What a byte holds at the
   depths 1, 2, 4 (its samples, whether it fits, what a packed chunk reads back as) is finite and checked by evaluation;
   replication and fitting are then arithmetic: multiplication by 255 / (2^bits - 1). *)
From OxiVerif Require Import Base.Common Base.ListFacts Spec.Adam7 Spec.Sem Model.Types Model.ScanLines Model.BitDepth Proofs.Bridge
  Proofs.Adam7Geom Proofs.ImageLift Proofs.LiftReductions Proofs.LiftColor Proofs.LiftLines.
Local Open Scope Z_scope.

Lemma groups_fuel_more {A} (n : nat) : (0 < n)%nat -> forall fuel (l : list A), (length l <= fuel)%nat ->
  groups_fuel fuel n l = groups_fuel (length l) n l.
Proof. intros Hn fuel l Hl. apply (chunks_exact_fuel_indep n Hn); auto. Qed.

Definition depths_lt8 : list Z := [1; 2; 4].
Ltac each_depth H := destruct H as [<-|[<-|[<-|[]]]].

Lemma depth_bounds bits : In bits depths_lt8 ->
  1 <= bits <= 4 /\ 2 <= 2 ^ bits <= 16 /\ 2 <= 8 / bits <= 8 /\ 2 ^ bits * 2 ^ (8 - bits) = 256.
Proof. intros Hb. each_depth Hb; cbn; lia. Qed.

Definition rep8 (bits v : Z) : Z := replicate8 3 v bits.
Definition mask_of (bits : Z) : Z := 2 ^ bits - 1.
Definition samples_lt (bits : Z) : list Z := map Z.of_nat (seq 0 (Z.to_nat (2 ^ bits))).
Definition samples (bits b : Z) : list Z := map sval (groups (Z.to_nat bits) (sbits_of_byte b)).

Lemma in_samples_lt bits v : 0 <= v < 2 ^ bits -> In v (samples_lt bits).
Proof.
  intros Hv. unfold samples_lt. apply in_map_iff. exists (Z.to_nat v). split; [lia|]. apply in_seq. lia.
Qed.

Lemma high_group_range bits t : In bits depths_lt8 -> 0 <= t < 256 -> 0 <= t / 2 ^ (8 - bits) < 2 ^ bits.
Proof.
  intros Hb Ht. pose proof (depth_bounds bits Hb). split; [apply Z.div_pos|apply Z.div_lt_upper_bound]; nia.
Qed.

Lemma land_mask bits v : 0 <= bits -> Z.land v (mask_of bits) = v mod 2 ^ bits.
Proof. intros Hb. unfold mask_of. rewrite <- Z.land_ones, Z.ones_equiv, Z.sub_1_r by exact Hb. reflexivity. Qed.

Lemma sample_range bits v : In bits depths_lt8 -> 0 <= v mod 2 ^ bits < 2 ^ bits.
Proof. intros Hb. apply Z.mod_pos_bound. pose proof (depth_bounds bits Hb). lia. Qed.

Lemma rep_table : forallb (fun bits => forallb (fun v =>
    (rep8 bits v =? v * (255 / (2 ^ bits - 1))) && (replicate16 3 v bits =? rep8 bits v))
  (samples_lt bits)) depths_lt8 = true.
Proof. vm_compute. reflexivity. Qed.

Lemma rep8_mul bits v : In bits depths_lt8 -> 0 <= v < 2 ^ bits ->
  rep8 bits v = v * (255 / (2 ^ bits - 1)) /\ replicate16 3 v bits = rep8 bits v.
Proof.
  intros Hb Hv. pose proof rep_table as T. rewrite forallb_forall in T. specialize (T bits Hb).
  rewrite forallb_forall in T. specialize (T v (in_samples_lt bits v Hv)).
  apply andb_true_iff in T. rewrite !Z.eqb_eq in T. exact T.
Qed.

Lemma unit_mul bits : In bits depths_lt8 -> 0 < 255 / (2 ^ bits - 1) /\ 255 / (2 ^ bits - 1) * (2 ^ bits - 1) = 255.
Proof. intros Hb. each_depth Hb; cbn; lia. Qed.

Lemma rep_spec bits v : In bits depths_lt8 -> 0 <= v < 2 ^ bits ->
  scale16 8 (rep8 bits v) = scale16 bits v /\ 0 <= rep8 bits v < 256 /\
  (forall t, 0 <= t < 2 ^ bits -> (rep8 bits t =? rep8 bits v) = (t =? v)).
Proof.
  intros Hb Hv. rewrite (proj1 (rep8_mul bits v Hb Hv)). destruct (unit_mul bits Hb) as [Hu U].
  set (u := 255 / (2 ^ bits - 1)) in *. split; [|split].
  - unfold scale16. change (2 ^ 8 - 1) with 255. rewrite <- U, (Z.mul_comm v u), <- Z.mul_assoc. apply Z.div_mul_cancel_l; nia.
  - nia.
  - intros t Ht. rewrite (proj1 (rep8_mul bits t Hb Ht)). fold u.
    destruct (Z.eqb_spec t v) as [->|Hne]; [apply Z.eqb_refl|]. apply Z.eqb_neq. nia.
Qed.

(* The bits of a byte are bound once for the three depths: division is what an evaluation of this table spends its
   time on.  `fits` itself is not evaluated; the second conjunct is about the samples it compares. *)
Lemma byte_table : forallb (fun b => let s := sbits_of_byte b in forallb (fun bits =>
    let ss := map sval (groups (Z.to_nat bits) s) in
    list_eqb Z.eqb (expand_byte (Z.to_nat (8 / bits)) b bits (mask_of bits) false) ss &&
    Bool.eqb (forallb (fun v => v =? hd 0 ss) ss) (b =? b mod 2 ^ bits * (255 / (2 ^ bits - 1)))) depths_lt8) bytes256 = true.
Proof. vm_compute. reflexivity. Qed.

Lemma byte_spec bits b : In bits depths_lt8 -> 0 <= b < 256 ->
  expand_byte (Z.to_nat (8 / bits)) b bits (mask_of bits) false = samples bits b /\
  forallb (fun v => v =? hd 0 (samples bits b)) (samples bits b) = (b =? b mod 2 ^ bits * (255 / (2 ^ bits - 1))).
Proof.
  intros Hb Hv. pose proof byte_table as T. rewrite forallb_forall in T. specialize (T b (in_bytes256 b Hv)). cbv zeta in T.
  rewrite forallb_forall in T. specialize (T bits Hb). apply andb_true_iff in T. destruct T as [T1 T2].
  split; [apply list_eqb_Z_spec; exact T1|apply Bool.eqb_prop; exact T2].
Qed.

Lemma expand_byte_gray bits mask g : forall n b,
  expand_byte n b bits mask g = map (fun v => if g then replicate8 3 v bits else v) (expand_byte n b bits mask false).
Proof. induction n as [|n IH]; intros b; cbn [expand_byte map]; [reflexivity|]. rewrite IH. reflexivity. Qed.

(* the comparisons of 'try_depth run over the samples that the expansion loop produces *)
Lemma divisions_equal_expand bits mask cmp : forall n byte,
  divisions_equal n byte bits mask cmp = forallb (fun v => v =? cmp) (expand_byte n byte bits mask false).
Proof.
  induction n as [|n IH]; intros byte; cbn [divisions_equal expand_byte forallb]; [reflexivity|].
  rewrite IH. destruct (_ =? cmp); reflexivity.
Qed.

Lemma fits_mul bits v : In bits depths_lt8 -> 0 <= v < 256 -> fits bits v = (v =? v mod 2 ^ bits * (255 / (2 ^ bits - 1))).
Proof.
  intros Hb Hv. destruct (byte_spec bits v Hb Hv) as [E <-]. rewrite <- E. unfold fits, mask_of. cbv zeta.
  rewrite divisions_equal_expand.
  replace (Z.to_nat (8 / bits)) with (S (Z.to_nat (8 / bits - 1))) by (pose proof (depth_bounds bits Hb); lia).
  cbn [expand_byte hd forallb]. rewrite Z.eqb_refl. reflexivity.
Qed.

Lemma fits_spec bits v : In bits depths_lt8 -> 0 <= v < 256 -> fits bits v = true ->
  v = rep8 bits (v mod 2 ^ bits) /\ v / 2 ^ (8 - bits) = v mod 2 ^ bits /\
  forall b2, In b2 depths_lt8 -> bits <= b2 -> fits b2 v = true.
Proof.
  intros Hb Hv Hf. rewrite fits_mul in Hf by assumption. apply Z.eqb_eq in Hf.
  rewrite (proj1 (rep8_mul bits _ Hb (sample_range bits v Hb))). split; [exact Hf|]. split.
  - each_depth Hb; cbn in *; Z.div_mod_to_equations; lia.
  - intros b2 H2 Hle. rewrite fits_mul by assumption. apply Z.eqb_eq. each_depth Hb; each_depth H2; cbn in *; Z.div_mod_to_equations; lia.
Qed.

Fixpoint lists_of {A} (vals : list A) (k : nat) : list (list A) :=
  match k with O => [[]] | S k' => flat_map (fun t => map (fun v => v :: t) vals) (lists_of vals k') end.

Lemma lists_of_complete {A} (vals : list A) : forall k l, length l = k -> (forall x, In x l -> In x vals) -> In l (lists_of vals k).
Proof.
  induction k as [|k IH]; intros l Hl Hin.
  - destruct l; [left; reflexivity|cbn in Hl; lia].
  - destruct l as [|x t]; [cbn in Hl; lia|]. cbn [lists_of]. apply in_flat_map. exists t. split.
    + apply IH; [cbn in Hl; lia|]. intros y Hy. apply Hin. right. exact Hy.
    + apply in_map_iff. exists x. split; [reflexivity|]. apply Hin. left. reflexivity.
Qed.

Lemma pack_table : forallb (fun bits => forallb (fun c =>
    let p := pack_chunk c bits (mask_of bits) 8 in (0 <=? p) && (p <? 256) && list_eqb Z.eqb (samples bits p) c)
  (lists_of (samples_lt bits) (Z.to_nat (8 / bits)))) depths_lt8 = true.
Proof. vm_compute. reflexivity. Qed.

Lemma pack_chunk_masked c bits mask : forall shift, pack_chunk (map (fun v => Z.land v mask) c) bits mask shift = pack_chunk c bits mask shift.
Proof.
  induction c as [|v t IH]; intros shift; cbn [map pack_chunk]; [reflexivity|].
  rewrite IH. rewrite <- Z.land_assoc, Z.land_diag. reflexivity.
Qed.

Lemma pack_chunk_pad bits mask j : forall c shift, pack_chunk (c ++ repeat 0 j) bits mask shift = pack_chunk c bits mask shift.
Proof.
  induction c as [|v t IH]; intros shift; cbn [app pack_chunk]; [|rewrite IH; reflexivity].
  revert shift. induction j as [|j IH]; intros shift; cbn [repeat pack_chunk]; [reflexivity|]. rewrite IH. reflexivity.
Qed.

Lemma pack_chunk_spec bits c : In bits depths_lt8 -> (length c <= Z.to_nat (8 / bits))%nat ->
  let p := pack_chunk c bits (mask_of bits) 8 in
  0 <= p < 256 /\ firstn (length c) (samples bits p) = map (fun v => Z.land v (mask_of bits)) c.
Proof.
  intros Hb Hl. cbn zeta. rewrite <- (pack_chunk_masked c bits (mask_of bits) 8).
  set (c' := map (fun v => Z.land v (mask_of bits)) c). rewrite <- (map_length (fun v => Z.land v (mask_of bits)) c) in *. fold c' in Hl |- *.
  rewrite <- (pack_chunk_pad bits (mask_of bits) (Z.to_nat (8 / bits) - length c')).
  pose proof pack_table as T. rewrite forallb_forall in T. specialize (T bits Hb). rewrite forallb_forall in T.
  specialize (T (c' ++ repeat 0 (Z.to_nat (8 / bits) - length c'))). cbn zeta in T.
  rewrite !andb_true_iff, Z.leb_le, Z.ltb_lt, list_eqb_Z_spec in T. destruct T as [Hp E].
  - apply lists_of_complete; [rewrite app_length, repeat_length; lia|]. intros x Hx. apply in_samples_lt.
    apply in_app_or in Hx. destruct Hx as [Hx|Hx].
    + apply in_map_iff in Hx. destruct Hx as [v [<- _]]. rewrite land_mask by (pose proof (depth_bounds bits Hb); lia). apply sample_range. exact Hb.
    + apply repeat_spec in Hx. subst x. pose proof (depth_bounds bits Hb). lia.
  - split; [exact Hp|]. rewrite E, firstn_app, Nat.sub_diag, firstn_all, firstn_O. apply app_nil_r.
Qed.

Lemma samples_length bits b : In bits depths_lt8 -> length (samples bits b) = Z.to_nat (8 / bits).
Proof. intros Hb. each_depth Hb; reflexivity. Qed.

Lemma samples_of_bytes bits (dl : list Z) : In bits depths_lt8 ->
  map sval (groups (Z.to_nat bits) (sbits_of_bytes dl)) = flat_map (samples bits) dl.
Proof.
  intros Hb. unfold sbits_of_bytes. rewrite groups_is_chunks_exact, (chunks_exact_flat_map _ _ _ (Z.to_nat (8 / bits))).
  - rewrite !flat_map_concat_map, concat_map, map_map. reflexivity.
  - pose proof (depth_bounds bits Hb). lia.
  - intros x. each_depth Hb; reflexivity.
Qed.

Lemma groups_lengths {A} (n : nat) (l : list A) : Forall (fun g => length g = n) (groups n l).
Proof. rewrite groups_is_chunks_exact. apply chunks_exact_lengths. Qed.

Lemma line_pixels_lengths b n dl g : In g (line_pixels b n dl) -> length g = Z.to_nat b.
Proof.
  intros H. apply In_firstn in H. pose proof (groups_lengths (Z.to_nat b) (sbits_of_bytes dl)) as GL.
  rewrite Forall_forall in GL. exact (GL g H).
Qed.

Lemma pixel_color_one c d g : 0 < d -> length g = Z.to_nat d -> pixel_color c d g = color_of_samples c d [sval g].
Proof.
  intros Hd Hl. unfold pixel_color. rewrite groups_is_chunks_exact, chunks_exact_step by lia. rewrite <- Hl, firstn_all, skipn_all, chunks_exact_nil. reflexivity.
Qed.

Lemma sval_range g : 0 <= sval g < 2 ^ Z.of_nat (length g).
Proof.
  induction g as [|b t IH]; cbn [sval length]; [lia|]. rewrite Nat2Z.inj_succ, Z.pow_succ_r by lia. destruct b; lia.
Qed.

Lemma line_pixels_8 (n : Z) (bytes : list Z) : length bytes = Z.to_nat n ->
  line_pixels 8 n bytes = map sbits_of_byte bytes.
Proof.
  intros Hl. pose proof (line_pixels_aligned 1 n (map (fun v => [v]) bytes) ltac:(lia)) as P.
  rewrite concat_map_singleton in P. change (8 * Z.of_nat 1) with 8 in P. rewrite P.
  - rewrite map_map. apply map_ext. intros v. unfold sbits_of_bytes. cbn [flat_map]. apply app_nil_r.
  - apply Forall_forall. intros x Hx. apply in_map_iff in Hx. destruct Hx as [v [<- _]]. reflexivity.
  - rewrite map_length. exact Hl.
Qed.

Lemma sbits_of_bytes_flat l : sbits_of_bytes l = flat_map sbits_of_byte l.
Proof. reflexivity. Qed.

Lemma line_bytes_sub bits n : In bits depths_lt8 -> line_bytes bits n = cdiv n (8 / bits).
Proof. intros Hb. unfold line_bytes, cdiv. each_depth Hb; cbn; Z.div_mod_to_equations; lia. Qed.

Lemma line_bytes_8 n : line_bytes 8 n = n.
Proof. rewrite <- (Z.mul_1_r n) at 2. exact (line_bytes_aligned 1 n). Qed.

Lemma expand_line bits g n (dl : list Z) : In bits depths_lt8 -> length dl = Z.to_nat (line_bytes bits n) -> bytes_ok dl ->
  let tl := firstn (Z.to_nat n) (flat_map (fun b => expand_byte (Z.to_nat (8 / bits)) b bits (mask_of bits) g) dl) in
  tl = map (fun grp => if g then rep8 bits (sval grp) else sval grp) (line_pixels bits n dl) /\ length tl = Z.to_nat n.
Proof.
  intros Hb Hlen Hok. cbn zeta. unfold line_pixels.
  assert (E : flat_map (fun b => expand_byte (Z.to_nat (8 / bits)) b bits (mask_of bits) g) dl
              = map (fun v => if g then rep8 bits v else v) (flat_map (samples bits) dl)).
  { rewrite !flat_map_concat_map, concat_map, map_map. f_equal. apply map_ext_in. intros b Hin.
    rewrite expand_byte_gray, (proj1 (byte_spec bits b Hb (bytes_ok_in _ _ Hok Hin))). reflexivity. }
  rewrite E. rewrite <- (samples_of_bytes bits dl Hb), map_map.
  rewrite firstn_map. split; [reflexivity|]. rewrite map_length, firstn_length.
  rewrite <- (map_length sval), samples_of_bytes, flat_map_concat_map by exact Hb.
  rewrite (concat_length_uniform (Z.to_nat (8 / bits))), map_length, Hlen.
  - rewrite line_bytes_sub by exact Hb. pose proof (depth_bounds bits Hb). pose proof (cdiv_gt (8 / bits) n (cdiv n (8 / bits))). nia.
  - apply Forall_forall. intros x Hx. apply in_map_iff in Hx. destruct Hx as [b [<- _]]. apply samples_length. exact Hb.
Qed.

Definition expand_ctype (c : color_type) (bits : Z) : color_type :=
  match c with
  | Gray (Some trans) => Gray (Some (replicate16 3 trans bits))
  | Gray None => Gray None | RGB key => RGB key | Indexed pal => Indexed pal | GrayAlpha => GrayAlpha | RGBA => RGBA
  end.

Definition is_plain_gray (c : color_type) : bool := match c with Gray _ => true | _ => false end.

Lemma pixel_expand c bits g : In bits depths_lt8 -> channels_per_pixel c = 1 -> wf_ctype c bits -> length g = Z.to_nat bits ->
  let v := if is_plain_gray c then rep8 bits (sval g) else sval g in
  0 <= v < 256 /\ pixel_color (spec_color_of (expand_ctype c bits)) 8 (sbits_of_byte v) = pixel_color (spec_color_of c) bits g.
Proof.
  intros Hb Hch Hwf Hl. pose proof (depth_bounds bits Hb) as D. cbn zeta.
  rewrite (pixel_color_one _ bits g), (pixel_color_one _ 8) by first [reflexivity|assumption|lia].
  pose proof (sval_range g) as Hv. rewrite Hl, Z2Nat.id in Hv by lia.
  destruct (rep_spec bits (sval g) Hb Hv) as (Hs & Hr & Hinj).
  destruct c as [key| |pal| |]; try (cbn in Hch; lia); cbn [is_plain_gray]; split; try exact Hr.
  - rewrite sval_sbits_of_byte by exact Hr.
    destruct key as [k|]; cbn [expand_ctype spec_color_of color_of_samples]; rewrite Hs; [|reflexivity].
    cbn [wf_ctype] in Hwf. destruct (rep_spec bits k Hb Hwf) as (_ & Hkr & _). rewrite (proj2 (rep8_mul bits k Hb Hwf)).
    unfold key_match. change (2 ^ 8) with 256. rewrite (Z.mod_small (rep8 bits k)), (Z.mod_small k), (Hinj k Hwf) by assumption.
    reflexivity.
  - lia.
  - rewrite sval_sbits_of_byte by lia. reflexivity.
Qed.

Theorem expanded_bit_depth_to_8_sem img img' pic : wf img ->
  expanded_bit_depth_to_8 img = Ok (Some img') -> sem img = Some pic -> sem img' = Some pic /\ wf img'.
Proof.
  intros [Hok Hwf] Hexp Hsem. unfold expanded_bit_depth_to_8 in Hexp.
  destruct (Z.leb_spec 8 (depth (hdr img))) as [|Hd]; [discriminate|].
  destruct (sem_some_cut _ _ Hsem) as (Hw & Hh & Hbpp & lines & Hcut).
  rewrite (scan_lines_is_layout img lines Hw Hh Hbpp Hcut) in Hexp. cbn [bind] in Hexp. cbv zeta in Hexp.
  rewrite flat_map_concat_map, map_map in Hexp. injection Hexp as <-.
  pose proof (sem_some_legal _ _ Hsem) as Hlegal.
  assert (Hch : channels_per_pixel (ctype (hdr img)) = 1 /\ In (depth (hdr img)) depths_lt8).
  { destruct (ctype (hdr img)); cbn in Hlegal |- *; rewrite !orb_true_iff, !Z.eqb_eq in Hlegal; lia. }
  destruct Hch as [Hch Hbits]. set (bits := depth (hdr img)) in *.
  assert (Hbpp1 : bpp (hdr img) = bits) by (unfold bpp; fold bits; rewrite Hch; lia). rewrite Hbpp1 in *.
  assert (Hch' : channels_per_pixel (expand_ctype (ctype (hdr img)) bits) = 1) by (destruct (ctype (hdr img)) as [[?|]| | | |]; exact Hch).
  apply (sem_linewise byte_ok img (expand_ctype (ctype (hdr img)) bits) 8 _ lines pic Hok Hsem); rewrite ?Hbpp1, ?Hch'; try lia; try assumption.
  - destruct (ctype (hdr img)) as [[?|]| | | |]; cbn in Hch |- *; try lia; reflexivity.
  - destruct (ctype (hdr img)) as [[k|]| | | |]; try (cbn in Hch; lia); cbn [expand_ctype wf_ctype] in *; auto.
    rewrite (proj2 (rep8_mul bits k Hbits Hwf)). apply (rep_spec bits k Hbits Hwf).
  - intros l Hl Hn Hlen Hlok. cbn [l_npix l_data to_scanline]. change (8 * 1) with 8. fold (mask_of bits) (is_plain_gray (ctype (hdr img))).
    destruct (expand_line bits (is_plain_gray (ctype (hdr img))) _ _ Hbits Hlen Hlok) as [HT1 HT2]. cbn zeta in HT1, HT2.
    assert (Hpx : forall g, In g (line_pixels bits (snd (fst l)) (snd l)) -> _) by
      (intros g Hg; exact (pixel_expand (ctype (hdr img)) bits g Hbits Hch Hwf (line_pixels_lengths _ _ _ _ Hg))).
    rewrite (line_pixels_8 _ _ HT2), line_bytes_8, HT2. split; [reflexivity|]. rewrite HT1. split.
    + apply Forall_forall. intros x Hx. apply in_map_iff in Hx. destruct Hx as [g [<- Hg]]. apply (Hpx g Hg).
    + rewrite !map_map. apply (refines_map (fun x => x) (fun x => x)); [reflexivity|]. intros g ? Hg _ -> _. apply (Hpx g Hg).
Qed.

Lemma pack_line bits (dl : list Z) : In bits depths_lt8 ->
  let tl := map (fun ch => pack_chunk ch bits (mask_of bits) 8) (chunks (Z.to_nat (8 / bits)) dl) in
  Z.of_nat (length tl) = cdiv (Z.of_nat (length dl)) (8 / bits) /\ bytes_ok tl /\
  firstn (length dl) (flat_map (samples bits) tl) = map (fun v => Z.land v (mask_of bits)) dl.
Proof.
  intros Hb. cbn zeta. set (ppb := Z.to_nat (8 / bits)).
  assert (Hp0 : (0 < ppb)%nat) by (pose proof (depth_bounds bits Hb); lia).
  remember (length dl) as k eqn:Ek. revert dl Ek. induction k as [k IH] using lt_wf_ind. intros dl ->.
  destruct dl as [|x t] eqn:Edl; [rewrite chunks_nil; each_depth Hb; repeat split; constructor|].
  rewrite <- Edl in *. rewrite (chunks_step ppb dl Hp0) by (rewrite Edl; discriminate). cbn [map length flat_map].
  destruct (pack_chunk_spec bits (firstn ppb dl) Hb) as [Hpr Hpv]; [rewrite firstn_length; lia|]. cbn zeta in Hpr, Hpv.
  set (p := pack_chunk (firstn ppb dl) bits (mask_of bits) 8) in *.
  assert (Hdl : (1 <= length dl)%nat) by (rewrite Edl; cbn; lia).
  destruct (IH (length (skipn ppb dl)) ltac:(rewrite skipn_length; lia) _ eq_refl) as (I1 & I2 & I3).
  rewrite skipn_length in I1, I3. rewrite firstn_length in Hpv. split; [|split].
  - clear -Hb I1 Hdl. subst ppb. each_depth Hb; cbn in *; unfold cdiv in *; Z.div_mod_to_equations; lia.
  - apply Forall_cons; assumption.
  - rewrite <- (firstn_skipn ppb dl), map_app, <- Hpv, <- I3, firstn_skipn, firstn_app, (samples_length bits p Hb). fold ppb. f_equal.
    destruct (Nat.le_gt_cases ppb (length dl)).
    + rewrite Nat.min_l, !firstn_all2 by (rewrite ?samples_length by exact Hb; fold ppb; lia). reflexivity.
    + rewrite Nat.min_r by lia. reflexivity.
Qed.

Lemma raise_bits_spec : forall fuel b v b', In b depths_lt8 -> raise_bits fuel b v = Some b' ->
  In b' depths_lt8 /\ b <= b' /\ fits b' v = true.
Proof.
  induction fuel as [|f IH]; intros b v b' Hb H; cbn [raise_bits] in H.
  - destruct (fits b v) eqn:E; [|discriminate]. injection H as <-. repeat split; auto; lia.
  - destruct (fits b v) eqn:E; [injection H as <-; repeat split; auto; lia|].
    destruct (b * 2 =? 8) eqn:E8; [discriminate|]. apply Z.eqb_neq in E8.
    assert (Hb2 : In (b * 2) depths_lt8) by (each_depth Hb; cbn in *; auto; lia).
    destruct (IH _ _ _ Hb2 H) as (H1 & H2 & H3). repeat split; auto. pose proof (depth_bounds b Hb). lia.
Qed.

Lemma gray_min_bits_spec data : forall b b', In b depths_lt8 -> bytes_ok data -> gray_min_bits data b = Some b' ->
  In b' depths_lt8 /\ b <= b' /\ forall v, In v data -> fits b' v = true.
Proof.
  induction data as [|x t IH]; intros b b' Hb Hok H; cbn [gray_min_bits] in H.
  - injection H as <-. split; [exact Hb|split; [lia|intros ? []]].
  - apply bytes_ok_cons in Hok. destruct Hok as [Hx Hok].
    destruct ((x =? 0) || (x =? 255)) eqn:E.
    + destruct (IH _ _ Hb Hok H) as (H1 & H2 & H3). split; [exact H1|split; [exact H2|]]. intros v [<-|Hv]; [|auto].
      apply orb_true_iff in E. destruct E as [E|E]; apply Z.eqb_eq in E; subst x; each_depth H1; reflexivity.
    + destruct (raise_bits 3 b x) as [b1|] eqn:Er; [|discriminate].
      destruct (raise_bits_spec _ _ _ _ Hb Er) as (R1 & R2 & R3).
      destruct (IH _ _ R1 Hok H) as (H1 & H2 & H3). split; [exact H1|split; [lia|]]. intros v [<-|Hv]; [|auto].
      apply (fits_spec b1 x R1 Hx R3); auto.
Qed.

Definition reduce_ctype (c : color_type) (bits : Z) : color_type :=
  match c with
  | Gray (Some trans) =>
      Gray (if trans =? replicate16 3 (trans mod 256 / 2 ^ (8 - bits)) bits then Some (trans mod 256 / 2 ^ (8 - bits)) else None)
  | Gray None => Gray None | RGB key => RGB key | Indexed pal => Indexed pal | GrayAlpha => GrayAlpha | RGBA => RGBA
  end.

(* only `refines`: an index outside the palette has no colour, and masking may bring it inside *)
Lemma pixel_reduce c bits v g : In bits depths_lt8 -> channels_per_pixel c = 1 -> wf_ctype c 8 ->
  sval g = Z.land v (mask_of bits) -> length g = Z.to_nat bits -> 0 <= v < 256 ->
  match c with Indexed pal => lenZ pal <= 2 ^ bits | _ => fits bits v = true end ->
  refines (pixel_color (spec_color_of c) 8 (sbits_of_byte v)) (pixel_color (spec_color_of (reduce_ctype c bits)) bits g).
Proof.
  intros Hb Hch Hwf Hvg Hgl Hv Hguar. pose proof (depth_bounds bits Hb) as D.
  rewrite (pixel_color_one _ bits g), (pixel_color_one _ 8) by first [reflexivity|assumption|lia].
  rewrite sval_sbits_of_byte, Hvg, land_mask by (assumption || lia).
  pose proof (sample_range bits v Hb) as Hm. set (m := v mod 2 ^ bits) in *.
  destruct c as [key| |pal| |]; try (cbn in Hch; lia).
  - intros _. destruct (fits_spec bits v Hb Hv Hguar) as (Hf & Hhi & _). fold m in Hf, Hhi.
    destruct (rep_spec bits m Hb Hm) as (Hs & _ & Hinj).
    destruct key as [t|]; cbn [reduce_ctype spec_color_of color_of_samples]; rewrite <- Hs, <- Hf; [|reflexivity].
    cbn [wf_ctype] in Hwf. change (2 ^ 8) with 256 in Hwf. rewrite (Z.mod_small t 256) by exact Hwf.
    pose proof (high_group_range bits t Hb Hwf) as Hrt.
    set (rt := t / 2 ^ (8 - bits)) in *. rewrite (proj2 (rep8_mul bits rt Hb Hrt)).
    unfold key_match at 2. change (2 ^ 8) with 256. rewrite (Z.mod_small t 256) by exact Hwf.
    destruct (Z.eqb_spec t (rep8 bits rt)) as [Et|Ent]; cbn [spec_color_of color_of_samples].
    + unfold key_match. rewrite (Z.mod_small rt) by exact Hrt.
      replace (t =? v) with (rt =? m); [reflexivity|]. rewrite Et, Hf at 1. symmetry. apply Hinj. exact Hrt.
    + destruct (Z.eqb_spec t v) as [Etv|_]; [|reflexivity]. exfalso. apply Ent. subst t. unfold rt. rewrite Hhi. exact Hf.
  - cbn [reduce_ctype spec_color_of color_of_samples]. unfold lenZ in Hguar. unfold rgba8 in *. intros Hsome.
    destruct (nth_error pal (Z.to_nat v)) as [e|] eqn:En; [|exfalso; apply Hsome; reflexivity].
    assert (Hvl : (Z.to_nat v < length pal)%nat) by (apply nth_error_Some; congruence).
    unfold m. rewrite Z.mod_small, En by lia. reflexivity.
Qed.

Theorem reduced_bit_depth_8_or_less_sem img img' pic : wf img ->
  reduced_bit_depth_8_or_less img = Ok (Some img') -> sem img = Some pic -> sem img' = Some pic /\ wf img'.
Proof.
  intros [Hok Hwf] Hred Hsem. unfold reduced_bit_depth_8_or_less in Hred. cbv zeta in Hred.
  destruct (depth (hdr img) =? 8) eqn:Ed; cbn [negb orb] in Hred; [|discriminate]. apply Z.eqb_eq in Ed.
  destruct (channels img =? 1) eqn:Ech; cbn [negb] in Hred; [|discriminate]. apply Z.eqb_eq in Ech. unfold channels in Ech.
  destruct (sem_some_cut _ _ Hsem) as (Hw & Hh & Hbpp & lines & Hcut).
  assert (Hbpp8 : bpp (hdr img) = 8) by (unfold bpp; rewrite Ed, Ech; lia).
  match type of Hred with (match ?mb with _ => _ end) = _ => destruct mb as [bits|] eqn:Emb; [|discriminate] end.
  rewrite (scan_lines_is_layout img lines Hw Hh Hbpp Hcut) in Hred. cbn [bind] in Hred.
  rewrite flat_map_concat_map, map_map in Hred. injection Hred as <-.
  set (guar := fun v => match ctype (hdr img) with Indexed pal => lenZ pal <= 2 ^ bits | _ => fits bits v = true end).
  assert (Hbits : In bits depths_lt8 /\ forall v, In v (data img) -> guar v).
  { unfold guar, lenZ. destruct (ctype (hdr img)) as [key| |pal| |] eqn:Ec; try (cbn in Ech; lia).
    - destruct (gray_min_bits_spec (data img) 1 bits ltac:(cbn; auto) Hok Emb) as (G1 & _ & G3). split; auto.
    - destruct (Nat.leb_spec (length pal) 2); [injection Emb as <-; split; [cbn; auto|cbn; lia]|].
      destruct (Nat.leb_spec (length pal) 4); [injection Emb as <-; split; [cbn; auto|cbn; lia]|].
      destruct (Nat.leb_spec (length pal) 16); [injection Emb as <-; split; [cbn; auto|cbn; lia]|discriminate]. }
  destruct Hbits as [Hbits Hguar].
  assert (Hch' : channels_per_pixel (reduce_ctype (ctype (hdr img)) bits) = 1) by (destruct (ctype (hdr img)) as [[?|]| | | |]; exact Ech).
  apply (sem_linewise (fun v => byte_ok v /\ guar v) img (reduce_ctype (ctype (hdr img)) bits) bits _ lines pic); try assumption; rewrite ?Hch', ?Hbpp8, ?Z.mul_1_r.
  - apply Forall_forall. intros v Hv. split; [exact (bytes_ok_in _ _ Hok Hv)|exact (Hguar v Hv)].
  - destruct (ctype (hdr img)) as [[k|]| |pal| |]; cbn in Ech; try lia; cbn [reduce_ctype spec_color_of depth_legal];
      each_depth Hbits; reflexivity.
  - pose proof (depth_bounds bits Hbits). lia.
  - destruct (ctype (hdr img)) as [[k|]| | | |]; try (cbn in Ech; lia); cbn [reduce_ctype wf_ctype] in *; auto.
    rewrite Ed in Hwf. change (2 ^ 8) with 256 in Hwf. rewrite (Z.mod_small k 256) by exact Hwf.
    destruct (k =? replicate16 3 (k / 2 ^ (8 - bits)) bits); cbn [wf_ctype]; [|exact I]. exact (high_group_range bits k Hbits Hwf).
  - intros l Hl Hn Hlen HPl. cbn [l_data to_scanline]. fold (mask_of bits). rewrite line_bytes_8 in Hlen.
    rewrite Forall_forall in HPl.
    destruct (pack_line bits (snd l) Hbits) as (P1 & P2 & P3). cbn zeta in P1, P2, P3.
    split; [|split; [exact P2|]].
    + rewrite line_bytes_sub by exact Hbits. rewrite Hlen, Z2Nat.id in P1 by exact Hn. lia.
    + rewrite (line_pixels_8 _ _ Hlen), map_map, Ed.
      apply (refines_map sval (fun v => Z.land v (mask_of bits))).
      * unfold line_pixels. rewrite <- firstn_map, samples_of_bytes, <- Hlen by exact Hbits. exact P3.
      * intros v g Hv Hg E. apply pixel_reduce; auto; try apply (HPl v Hv).
        -- rewrite <- Ed. exact Hwf.
        -- exact (line_pixels_lengths _ _ _ _ Hg).
Qed.
