(* C08 down to the PngData that is serialised and to the in-memory call: the switches are binding for the header that is written;
   C14 likewise: a grayscale conversion that the pre-processing of the chunks blocks does not happen, and one that happens drops sRGB / iCCP. *)
From OxiVerif Require Import Base.Common Model.Types Model.Options Model.Headers Model.PngData Model.Reductions Model.Optimize Proofs.EffectProofs
  Proofs.PipelineProofs Proofs.ChunkProofs Proofs.ContainerOk Proofs.ScaledFile Proofs.ChunkFlow.
Local Open Scope Z_scope.

Section Data.
Variable e : env.
Variable o : options.
Variable p p' : pngdata.
Hypothesis H : optimize_png_data e p o = Ok p'.

Lemma written_image : raw p' = raw p \/
  exists ms c, optimize_raw e (snd (preprocess_chunks e (aux_chunks p) o)) (raw p) ms = Ok (Some c) /\ raw p' = c_image c.
Proof. destruct (optimize_png_data_cases _ _ _ _ H) as [->|(ms & c & fr & Er & _ & ->)]; [left; reflexivity|right; exists ms, c; auto]. Qed.

Lemma written_satisfies (Q : image -> Prop) : Q (raw p) ->
  (forall b evs, perform_reductions e (snd (preprocess_chunks e (aux_chunks p) o)) (raw p) = Ok (b, evs) -> all_candidates Q b evs) ->
  Q (raw p').
Proof.
  intros H0 Hall. destruct written_image as [->|(ms & c & Er & ->)]; [exact H0|]. exact (emitted_satisfies Q e _ _ ms c Hall Er).
Qed.

Theorem data_bit_depth : bit_depth_reduction o = false -> depth (hdr (raw p')) = depth (hdr (raw p)).
Proof.
  intros Hb. apply (written_satisfies (fun i => depth (hdr i) = depth (hdr (raw p)))); [reflexivity|]. intros b evs. apply depth_preserved.
  rewrite preprocess_bit_depth, Hb. reflexivity.
Qed.

Theorem data_color_type : color_type_reduction o = false ->
  png_header_code (ctype (hdr (raw p'))) = png_header_code (ctype (hdr (raw p))).
Proof.
  intros Hb. apply (written_satisfies (fun i => png_header_code (ctype (hdr i)) = png_header_code (ctype (hdr (raw p))))); [reflexivity|]. intros b evs. apply color_type_preserved.
  rewrite preprocess_color_type, Hb. reflexivity.
Qed.

(* C14 at the level of what is written: grayscale conversion blocked by the pre-processing is really blocked *)
Theorem data_gray_blocked : grayscale_reduction (snd (preprocess_chunks e (aux_chunks p) o)) = false ->
  is_gray (ctype (hdr (raw p'))) = is_gray (ctype (hdr (raw p))).
Proof.
  intros Hb. apply (written_satisfies (fun i => grayness i = grayness (raw p))); [reflexivity|]. intros b evs. apply grayness_preserved. exact Hb.
Qed.

Theorem data_grayscale : grayscale_reduction o = false -> is_gray (ctype (hdr (raw p'))) = is_gray (ctype (hdr (raw p))).
Proof.
  intros Hb. apply data_gray_blocked.
  rewrite preprocess_grayscale, Hb. reflexivity.
Qed.

(* interlacing is kept when no mode is requested, and always for an animation whose chunks are kept (C10) *)
Lemma data_interlace_kept : interlace (snd (preprocess_chunks e (aux_chunks p) o)) = None ->
  interlaced (hdr (raw p')) = interlaced (hdr (raw p)).
Proof.
  intros Hi. apply (written_satisfies (fun i => interlaced (hdr i) = interlaced (hdr (raw p)))); [reflexivity|]. intros b evs. apply interlace_kept. exact Hi.
Qed.

Theorem data_keep_interlace : interlace o = None -> interlaced (hdr (raw p')) = interlaced (hdr (raw p)).
Proof.
  intros Hb. apply data_interlace_kept.
  rewrite preprocess_interlace, Hb.
  destruct (has_chunk name_acTL _); reflexivity.
Qed.

Theorem data_animation_keeps_interlace : has_chunk name_acTL (aux_chunks p) = true -> interlaced (hdr (raw p')) = interlaced (hdr (raw p)).
Proof.
  intros Ha. apply data_interlace_kept.
  rewrite preprocess_interlace, preprocess_keeps_actl, Ha. reflexivity.
Qed.

Theorem data_requested_interlace m : interlace o = Some m -> has_chunk name_acTL (aux_chunks p) = false ->
  raw p' = raw p \/ interlaced (hdr (raw p')) = m.
Proof.
  intros Hb Ha. destruct written_image as [->|(ms & c & Er & ->)]; [left; reflexivity|right].
  refine (emitted_satisfies (fun i => interlaced (hdr i) = m) e _ _ ms c _ Er). intros b evs. apply interlace_forced.
  rewrite preprocess_interlace, preprocess_keeps_actl, Ha. exact Hb.
Qed.

Theorem data_dimensions : width (hdr (raw p')) = width (hdr (raw p)) /\ height (hdr (raw p')) = height (hdr (raw p)).
Proof.
  apply (written_satisfies (fun i => width (hdr i) = width (hdr (raw p)) /\ height (hdr i) = height (hdr (raw p)))); [split; reflexivity|].
  intros b evs. apply dims_preserved.
Qed.

Theorem data_icc_kept_same_grayness :
  (icc_decide e (aux_chunks p) o = IccKept \/ exists c, icc_decide e (aux_chunks p) o = IccRecompressed c) ->
  is_gray (ctype (hdr (raw p'))) = is_gray (ctype (hdr (raw p))).
Proof. intros Hd. apply data_gray_blocked. apply icc_kept_no_gray_change. exact Hd. Qed.

Theorem data_srgb_same_grayness :
  chunk_position name_iCCP (aux_chunks p) O = None -> has_chunk name_sRGB (aux_chunks p) = true -> strip_is_none (strip o) = true ->
  is_gray (ctype (hdr (raw p'))) = is_gray (ctype (hdr (raw p))).
Proof. intros A B C. apply data_gray_blocked. apply srgb_gray_change_only_if_strip; assumption. Qed.

Theorem data_gray_change_drops_colourspace c :
  Bool.eqb (is_gray (ctype (hdr (raw p)))) (is_gray (ctype (hdr (raw p')))) = false -> In c (aux_chunks p') ->
  cname_eqb (c_name c) name_sRGB = false /\ cname_eqb (c_name c) name_iCCP = false.
Proof.
  intros Hg Hin. destruct (optimize_png_data_aux e o p p' H) as [[E|E] _].
  - rewrite E in Hg. cbn [raw] in Hg. rewrite Bool.eqb_reflx in Hg. discriminate.
  - rewrite E in Hin. rewrite postprocess_is_filter in Hin. apply filter_In in Hin. destruct Hin as [_ K].
    unfold pp_keep in K. rewrite Hg in K. cbn [negb] in K. apply andb_true_iff in K. destruct K as [_ K].
    apply negb_true_iff in K. apply orb_false_iff in K. exact K.
Qed.
End Data.

Theorem memory_switches_binding e o bytes out : optimize_from_memory e o bytes = Ok out ->
  out = bytes \/
  exists p p', from_slice e bytes o = Ok p /\ out = output p' /\
    (bit_depth_reduction o = false -> depth (hdr (raw p')) = depth (hdr (raw p))) /\
    (color_type_reduction o = false -> png_header_code (ctype (hdr (raw p'))) = png_header_code (ctype (hdr (raw p)))) /\
    (grayscale_reduction o = false -> is_gray (ctype (hdr (raw p'))) = is_gray (ctype (hdr (raw p)))) /\
    (interlace o = None -> interlaced (hdr (raw p')) = interlaced (hdr (raw p))) /\
    (forall m, interlace o = Some m -> has_chunk name_acTL (aux_chunks p) = false -> raw p' = raw p \/ interlaced (hdr (raw p')) = m) /\
    width (hdr (raw p')) = width (hdr (raw p)) /\ height (hdr (raw p')) = height (hdr (raw p)).
Proof.
  intros H. destruct (optimize_from_memory_cases _ _ _ _ H) as (p & Ep & [->|(p' & Eo & ->)]); [left; reflexivity|right].
  exists p, p'. split; [exact Ep|]. split; [reflexivity|].
  split; [apply (data_bit_depth e o p p' Eo)|]. split; [apply (data_color_type e o p p' Eo)|]. split; [apply (data_grayscale e o p p' Eo)|].
  split; [apply (data_keep_interlace e o p p' Eo)|]. split; [intros m; apply (data_requested_interlace e o p p' Eo m)|].
  apply (data_dimensions e o p p' Eo).
Qed.
