(* Proofs about the evaluator model (C06, C17): every complete schedule of the concurrent trials, and
   the sequential (non-parallel) build, yield the same candidate: the key-minimal eligible trial. *)
From OxiVerif Require Import Base.Common Model.Evaluate.

Definition key_lt (a b : trial) : Prop := key_ltb a b = true.

Lemma key_lt_unfold a b : key_lt a b <->
  total a < total b \/ (total a = total b /\
   (tRaw a < tRaw b \/ (tRaw a = tRaw b /\
     (tFilter a < tFilter b \/ (tFilter a = tFilter b /\ tNth b < tNth a))))).
Proof.
  unfold key_lt, key_ltb.
  rewrite !orb_true_iff, !andb_true_iff, !orb_true_iff, !andb_true_iff, !orb_true_iff, !andb_true_iff.
  rewrite !Z.ltb_lt, !Z.eqb_eq. tauto.
Qed.

Lemma key_lt_irrefl a : ~ key_lt a a.
Proof. rewrite key_lt_unfold. lia. Qed.

Lemma key_lt_trans a b c : key_lt a b -> key_lt b c -> key_lt a c.
Proof. rewrite !key_lt_unfold. lia. Qed.

Lemma key_lt_total_le a b : key_lt a b -> total a <= total b.
Proof. rewrite key_lt_unfold. lia. Qed.

(* distinct (submission, filter) pairs: no two trials of one evaluator share both *)
Definition ident (t : trial) : Z * Z := (tNth t, tFilter t).

Lemma key_total a b : ident a <> ident b -> key_lt a b \/ key_lt b a.
Proof.
  unfold ident. intros H. rewrite !key_lt_unfold.
  assert (tNth a <> tNth b \/ tFilter a <> tFilter b) by (destruct (Z.eq_dec (tNth a) (tNth b)), (Z.eq_dec (tFilter a) (tFilter b)); try lia; exfalso; apply H; congruence).
  lia.
Qed.

Lemma key_lt_asym a b : key_lt a b -> key_ltb b a = false.
Proof.
  intros H. destruct (key_ltb b a) eqn:E; [|reflexivity]. destruct (key_lt_irrefl a). exact (key_lt_trans _ _ _ H E).
Qed.

(* without any assumption on the trials: the result is one of them, and eligible *)
Lemma best_of_go_eligible init trials : forall best m, best_of_go init trials best = Some m ->
  (In m trials /\ eligible init m = true) \/ best = Some m.
Proof.
  induction trials as [|t r IH]; intros best m H; cbn [best_of_go] in H; [right; exact H|].
  apply IH in H. destruct H as [[Hin He]|H]; [left; split; [right; exact Hin|exact He]|].
  destruct (eligible init t) eqn:Ee; [|right; exact H].
  destruct best as [b|].
  - destruct (key_ltb t b); [|right; exact H]. injection H as <-. left. split; [left; reflexivity|exact Ee].
  - injection H as <-. left. split; [left; reflexivity|exact Ee].
Qed.

Lemma best_of_eligible init trials m : best_of init trials = Some m -> In m trials /\ eligible init m = true.
Proof. intros H. apply best_of_go_eligible in H as [H|H]; [exact H|discriminate]. Qed.

Lemma best_of_go_None init trials : forall best, best_of_go init trials best = None ->
  best = None /\ forall t, In t trials -> eligible init t = false.
Proof.
  induction trials as [|t r IH]; intros best H; cbn [best_of_go] in H; [split; [exact H|intros t []]|].
  apply IH in H as [Hb Hr]. destruct (eligible init t) eqn:E.
  - destruct best as [b|]; [destruct (key_ltb t b)|]; discriminate.
  - split; [exact Hb|]. intros u [<-|Hu]; auto.
Qed.

(* the best so far is only ever replaced by a smaller trial *)
Lemma best_of_go_le init trials : forall b M, best_of_go init trials (Some b) = Some M -> b = M \/ key_lt M b.
Proof.
  induction trials as [|t r IH]; intros b M H; cbn [best_of_go] in H; [left; congruence|].
  destruct (eligible init t); [|exact (IH b M H)]. destruct (key_ltb t b) eqn:Hlt; [|exact (IH b M H)].
  right. destruct (IH t M H) as [<-|H']; [exact Hlt|exact (key_lt_trans _ _ _ H' Hlt)].
Qed.

(* the keys are totally ordered only where (submission, filter) differ: both folds below compare the best so far with trials still to come *)
Definition apart (best : option trial) (rest : list trial) : Prop :=
  forall b t, best = Some b -> In t rest -> ident t <> ident b.

Lemma apart_None rest : apart None rest.
Proof. discriminate. Qed.

Lemma apart_tail best t r : apart best (t :: r) -> apart best r.
Proof. intros H b x Hb Hx. apply (H b x Hb). right. exact Hx. Qed.

Lemma apart_head t r : NoDup (map ident (t :: r)) -> apart (Some t) r.
Proof. intros Hnd b x [= <-] Hx E. inversion Hnd as [|? ? Hnt _]. apply Hnt. rewrite <- E. exact (in_map ident r x Hx). Qed.

Lemma best_of_go_min init trials : forall best M, apart best trials -> NoDup (map ident trials) ->
  best_of_go init trials best = Some M ->
  forall u, In u trials -> eligible init u = true -> u = M \/ key_lt M u.
Proof.
  induction trials as [|t r IH]; intros best M Hid Hnd H u Hu He; [destruct Hu|]. cbn [best_of_go] in H.
  assert (Hnr : NoDup (map ident r)) by (inversion Hnd; assumption).
  destruct Hu as [->|Hu].
  - (* the head is taken, or the best so far is smaller and stays *)
    rewrite He in H. destruct best as [b|]; [|exact (best_of_go_le _ _ _ _ H)].
    destruct (key_total u b (Hid b u eq_refl (or_introl eq_refl))) as [Hlt|Hlt].
    + rewrite Hlt in H. exact (best_of_go_le _ _ _ _ H).
    + rewrite (key_lt_asym _ _ Hlt) in H. right.
      destruct (best_of_go_le _ _ _ _ H) as [<-|H']; [exact Hlt|exact (key_lt_trans _ _ _ H' Hlt)].
  - pose proof (IH (Some t) M (apart_head t r Hnd) Hnr) as IHt. pose proof (IH best M (apart_tail _ _ _ Hid) Hnr) as IHb.
    destruct (eligible init t); [destruct best as [b|]; [destruct (key_ltb t b)|]|]; auto.
Qed.

Definition winner (init : option Z) (trials : list trial) (M : trial) : Prop :=
  In M trials /\ eligible init M = true /\ forall t, In t trials -> eligible init t = true -> t = M \/ key_lt M t.

Lemma best_of_spec init trials : NoDup (map ident trials) ->
  match best_of init trials with
  | None => forall t, In t trials -> eligible init t = false
  | Some M => winner init trials M
  end.
Proof.
  intros Hnd. destruct (best_of init trials) as [M|] eqn:E.
  - destruct (best_of_eligible _ _ _ E) as [Hin He]. repeat split; auto.
    exact (best_of_go_min init trials None M (apart_None trials) Hnd E).
  - exact (proj2 (best_of_go_None _ _ _ E)).
Qed.

Lemma min_by_key_In l m : min_by_key l = Some m -> In m l.
Proof.
  revert m; induction l as [|t r IH]; simpl; intros m H; try discriminate.
  destruct (min_by_key r) as [m'|]; [destruct (key_ltb t m')|]; injection H as <-; auto.
Qed.

Lemma min_by_key_M M l : In M l -> (forall t, In t l -> t = M \/ key_lt M t) -> min_by_key l = Some M.
Proof.
  induction l as [|t r IH]; cbn [min_by_key]; intros Hin Hall; [destruct Hin|].
  destruct Hin as [->|Hin].
  - destruct (min_by_key r) as [m'|] eqn:Hr; [|reflexivity].
    destruct (Hall m' (or_intror (min_by_key_In _ _ Hr))) as [->|H]; [destruct (key_ltb M M); reflexivity|rewrite H; reflexivity].
  - rewrite (IH Hin (fun x Hx => Hall x (or_intror Hx))).
    destruct (Hall t (or_introl eq_refl)) as [->|H]; [destruct (key_ltb M M); reflexivity|rewrite (key_lt_asym _ _ H); reflexivity].
Qed.

Lemma le_bound_min_iff l b v : le_bound l (min_bound b v) = true <-> le_bound l b = true /\ l <= v.
Proof. destruct b; simpl; rewrite ?Z.leb_le; lia. Qed.

(* the facts kept about the trials that have read the bound survive the change of one phase, if the new phase has them *)
Lemma read_phases (X : nat -> option Z -> Prop) ph i p :
  (i < length ph)%nat -> (forall b, p = HasRead b -> X i b) ->
  (forall j b, nth_error ph j = Some (HasRead b) -> X j b) ->
  forall j b, nth_error (set_nth i p ph) j = Some (HasRead b) -> X j b.
Proof.
  intros Hi Hp H j b Hj. destruct (Nat.eq_dec i j) as [<-|Hne].
  - rewrite nth_error_set_nth_eq in Hj by exact Hi. injection Hj as ->. auto.
  - rewrite nth_error_set_nth_neq in Hj by exact Hne. eauto.
Qed.

Lemma done_phase (X : Prop) ph i p k :
  (i < length ph)%nat -> (i = k -> p = Done -> X) -> (nth_error ph k = Some Done -> X) ->
  nth_error (set_nth i p ph) k = Some Done -> X.
Proof.
  intros Hi Hp H Hk. destruct (Nat.eq_dec i k) as [<-|Hne].
  - rewrite nth_error_set_nth_eq in Hk by exact Hi. injection Hk as ->. auto.
  - rewrite nth_error_set_nth_neq in Hk by exact Hne. auto.
Qed.

Section Fix.
Variable trials : list trial.
Variable init : option Z.
Hypothesis Knonneg : forall t, In t trials -> 0 <= tK t.

(* a bound that was current at some time is not above the initial one, and the winner fits under it *)
Definition bound_good (b : option Z) : Prop :=
  (forall l, le_bound l b = true -> le_bound l init = true) /\ (forall M, winner init trials M -> le_bound (tL M) b = true).

Lemma bound_good_min b t : bound_good b -> In t trials -> eligible init t = true -> bound_good (min_bound b (total t)).
Proof.
  intros [G1 G2] Hin Hel. split.
  - intros l Hl. apply le_bound_min_iff in Hl. apply G1, Hl.
  - intros M W. apply le_bound_min_iff. split; [exact (G2 M W)|]. destruct W as (HinM & _ & Hmin).
    pose proof (Knonneg M HinM). destruct (Hmin t Hin Hel) as [->|Hlt]; [unfold total; lia|].
    apply key_lt_total_le in Hlt. unfold total in *. lia.
Qed.

(* a trial in phase HasRead was not skipped; everything received is an eligible trial; the winner, once done, was received *)
Record Inv (s : state) : Prop := {
  inv_bound : bound_good (bound s);
  inv_read : forall i b, nth_error (phases s) i = Some (HasRead b) ->
               bound_good b /\ forall t, nth_error trials i = Some t -> tSkip t = false;
  inv_recv : forall t, In t (received s) -> In t trials /\ eligible init t = true;
  inv_done : forall i M, winner init trials M -> nth_error trials i = Some M -> nth_error (phases s) i = Some Done -> In M (received s);
  inv_len : length (phases s) = length trials
}.

Lemma Inv_init : Inv (init_state trials init).
Proof.
  constructor; simpl.
  - split; [auto|]. intros M (_ & He & _). apply andb_prop in He. apply He.
  - intros i b H. rewrite nth_error_map in H. destruct (nth_error trials i); discriminate.
  - intros t [].
  - intros i M _ Hi H. rewrite nth_error_map, Hi in H. discriminate.
  - apply map_length.
Qed.

Lemma step_Inv s e s' : Inv s -> step trials s e = Some s' -> Inv s'.
Proof.
  intros I Hs. destruct e as [i|i]; cbn [step] in Hs;
    destruct (nth_error (phases s) i) as [[|b|]|] eqn:Hp; try discriminate;
    destruct (nth_error trials i) as [t|] eqn:Ht; try discriminate;
    assert (Hi : (i < length (phases s))%nat) by (apply nth_error_Some; congruence).
  - destruct (tSkip t) eqn:Hsk; injection Hs as <-; constructor; cbn [bound phases received].
    + apply I.
    + apply read_phases; [exact Hi|discriminate|apply I].
    + apply I.
    + intros k M W Hk. apply done_phase; [exact Hi| |exact (inv_done _ I k M W Hk)].
      (* the winner is eligible, so not skipped *)
      intros -> _. exfalso. rewrite Ht in Hk. injection Hk as ->. destruct W as (_ & Hel & _).
      unfold eligible in Hel. rewrite Hsk in Hel. discriminate.
    + rewrite set_nth_length. apply I.
    + apply I.
    + apply read_phases; [exact Hi| |apply I]. intros b [= <-]. split; [apply I|]. intros t' Ht'. congruence.
    + apply I.
    + intros k M W Hk. apply done_phase; [exact Hi|discriminate|exact (inv_done _ I k M W Hk)].
    + rewrite set_nth_length. apply I.
  - destruct (inv_read _ I _ _ Hp) as [[G1 G2] Hns].
    (* a published trial had read a bound under which it fits: it is eligible *)
    assert (Hel : le_bound (tL t) b = true -> In t trials /\ eligible init t = true).
    { intros Hfit. split; [exact (nth_error_In _ _ Ht)|]. unfold eligible. rewrite (Hns t Ht). exact (G1 _ Hfit). }
    destruct (le_bound (tL t) b) eqn:Hfit; injection Hs as <-; constructor; cbn [bound phases received].
    + apply bound_good_min; [apply I|apply Hel; reflexivity..].
    + apply read_phases; [exact Hi|discriminate|apply I].
    + intros u [<-|Hu]; [exact (Hel eq_refl)|apply I; exact Hu].
    + intros k M W Hk. apply done_phase; [exact Hi| |intros H; right; exact (inv_done _ I k M W Hk H)].
      intros -> _. left. congruence.
    + rewrite set_nth_length. apply I.
    + apply I.
    + apply read_phases; [exact Hi|discriminate|apply I].
    + apply I.
    + intros k M W Hk. apply done_phase; [exact Hi| |exact (inv_done _ I k M W Hk)].
      (* the winner fits under every bound that was ever read *)
      intros -> _. exfalso. rewrite Ht in Hk. injection Hk as ->. rewrite (G2 M W) in Hfit. discriminate.
    + rewrite set_nth_length. apply I.
Qed.

Lemma run_Inv es : forall s s', Inv s -> run trials s es = Some s' -> Inv s'.
Proof.
  induction es as [|e es IH]; simpl; intros s s' I H.
  - injection H as <-. auto.
  - destruct (step trials s e) as [s1|] eqn:Hs; try discriminate. eauto using step_Inv.
Qed.
End Fix.

Lemma received_eligible trials init es s t : (forall t, In t trials -> 0 <= tK t) ->
  run trials (init_state trials init) es = Some s -> In t (received s) -> In t trials /\ eligible init t = true.
Proof. intros HK Hrun. exact (inv_recv _ _ _ (run_Inv _ _ HK es _ _ (Inv_init _ _) Hrun) t). Qed.

Theorem schedule_result_is_best_of trials init es s :
  (forall t, In t trials -> 0 <= tK t) -> NoDup (map ident trials) ->
  run trials (init_state trials init) es = Some s -> complete s ->
  min_by_key (received s) = best_of init trials.
Proof.
  intros HK Hnd Hrun Hc.
  pose proof (run_Inv _ _ HK es _ _ (Inv_init _ _) Hrun) as I.
  pose proof (best_of_spec init trials Hnd) as Hs.
  destruct (best_of init trials) as [M|].
  - apply min_by_key_M.
    + destruct (In_nth_error _ _ (proj1 Hs)) as [k Hk]. apply (inv_done _ _ _ I k M Hs Hk).
      unfold complete in Hc. rewrite Forall_forall in Hc.
      assert (k < length (phases s))%nat by (rewrite (inv_len _ _ _ I); apply nth_error_Some; congruence).
      destruct (nth_error (phases s) k) eqn:Hp; [|apply nth_error_None in Hp; lia].
      f_equal. apply Hc. eapply nth_error_In; eauto.
    + intros t Ht. destruct (inv_recv _ _ _ I t Ht). apply Hs; auto.
  - destruct (received s) as [|t r] eqn:Hr; [reflexivity|].
    destruct (inv_recv _ _ _ I t) as [Hin Hel]; [rewrite Hr; left; reflexivity|]. rewrite (Hs t Hin) in Hel. discriminate.
Qed.

Corollary schedule_independent trials init es1 es2 s1 s2 :
  (forall t, In t trials -> 0 <= tK t) -> NoDup (map ident trials) ->
  run trials (init_state trials init) es1 = Some s1 -> complete s1 ->
  run trials (init_state trials init) es2 = Some s2 -> complete s2 ->
  min_by_key (received s1) = min_by_key (received s2).
Proof. intros. erewrite !schedule_result_is_best_of; eauto. Qed.

(* the synchronous fold keeps the same best as the schedule-free scan. Its bound is the initial one lowered to the total of the
   best so far; a trial that fits under the initial bound but not under that total is larger than the best, so the scan passes it by too *)
Definition lowered (init : option Z) (best : option trial) : option Z :=
  match best with Some b => min_bound init (total b) | None => init end.

Lemma min_bound_twice b x y : min_bound (min_bound b x) y = min_bound b (Z.min x y).
Proof. destruct b; simpl; f_equal; lia. Qed.

Lemma sequential_go_best_of_go init : forall rest best,
  (forall t, In t rest -> 0 <= tK t) -> apart best rest -> NoDup (map ident rest) ->
  sequential_go rest (lowered init best) best = best_of_go init rest best.
Proof.
  induction rest as [|t r IH]; intros best HK Hid Hnd; cbn [sequential_go best_of_go]; [reflexivity|].
  assert (IH' : forall best', apart best' r -> sequential_go r (lowered init best') best' = best_of_go init r best').
  { intros best' Hid'. apply IH; [intros x Hx; apply HK; right; exact Hx|exact Hid'|inversion Hnd; assumption]. }
  pose proof (IH' (Some t) (apart_head t r Hnd)) as IHt. pose proof (IH' best (apart_tail _ _ _ Hid)) as IHb.
  unfold eligible. destruct (tSkip t); cbn [negb andb]; [exact IHb|].
  destruct best as [b|]; cbn [lowered] in *; [|destruct (le_bound (tL t) init); [exact IHt|exact IHb]].
  destruct (le_bound (tL t) (min_bound init (total b))) eqn:Hfit.
  - apply le_bound_min_iff in Hfit as [Hi _]. rewrite Hi, min_bound_twice.
    destruct (key_total t b (Hid b t eq_refl (or_introl eq_refl))) as [Hlt|Hlt];
      rewrite Hlt, (key_lt_asym _ _ Hlt); apply key_lt_total_le in Hlt.
    + rewrite Z.min_r by exact Hlt. exact IHt.
    + rewrite Z.min_l by exact Hlt. exact IHb.
  - destruct (le_bound (tL t) init) eqn:Hi; [|exact IHb]. destruct (key_ltb t b) eqn:Hlt; [|exact IHb].
    (* t would fit under the lowered bound *)
    apply key_lt_total_le in Hlt. apply not_true_iff_false in Hfit. destruct Hfit. apply le_bound_min_iff.
    split; [exact Hi|]. pose proof (HK t (or_introl eq_refl)). unfold total in *. lia.
Qed.

Lemma sequential_is_best_of init trials : (forall t, In t trials -> 0 <= tK t) -> NoDup (map ident trials) ->
  sequential init trials = best_of init trials.
Proof. intros HK Hnd. exact (sequential_go_best_of_go init trials None HK (apart_None trials) Hnd). Qed.
