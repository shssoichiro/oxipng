(* The I/O plan of `optimize` under a fault plan (C12; routing half of C04): the executor in closed form
   (`exec_closed`); the plan is reads, the computation, writes to the destination only (`plan_structure`);
   nothing is touched until the result is computed, nor under --pretend, nor in place without improvement;
   every failing operation is reported; what a file destination holds afterwards (original bytes when
   not improved, mode and times under --preserve). *)
From OxiVerif Require Import Base.Common Base.ListFacts Model.Io.

Definition fault_at (flt : fault) : option nat := match flt with NoFault => None | FailAt m | KillAt m => Some m end.

(* where position m falls in the n operations from k on *)
Definition index_in (m k n : nat) : option nat :=
  if (k <=? m)%nat && (m <? k + n)%nat then Some (m - k)%nat else None.

(* index (relative to the current position k) of the operation at which the run stops:
   `index_in m k n` for a fault at m *)
Definition stop_index (flt : fault) (k n : nat) : option nat :=
  match flt with
  | FailAt m | KillAt m => if (k <=? m)%nat && (m <? k + n)%nat then Some (m - k)%nat else None
  | NoFault => None
  end.
Definition stop_outcome (flt : fault) : outcome := match flt with KillAt _ => Killed | _ => Done_err end.

Definition apply_all (ops : list pop) (w : world) : world := fold_left (fun w o => p_eff o w) ops w.

Lemma index_in_0 m k : index_in m k 0 = None.
Proof. unfold index_in. destruct (Nat.leb_spec0 k m), (Nat.ltb_spec0 m (k + 0)); cbn; try reflexivity; lia. Qed.

Lemma index_in_S m k n :
  index_in m k (S n) = if (m =? k)%nat then Some O else option_map S (index_in m (S k) n).
Proof.
  unfold index_in.
  destruct (Nat.eqb_spec m k), (Nat.leb_spec0 k m), (Nat.ltb_spec0 m (k + S n)),
           (Nat.leb_spec0 (S k) m), (Nat.ltb_spec0 m (S k + n)); cbn; try reflexivity; try lia; f_equal; lia.
Qed.

Lemma stop_index_0 flt k : stop_index flt k 0 = None.
Proof. destruct flt; [reflexivity|apply index_in_0..]. Qed.

(* the recurrence that `exec` follows *)
Lemma stop_index_S flt k n : stop_index flt k (S n) =
  if match fault_at flt with Some m => (m =? k)%nat | None => false end then Some O
  else option_map S (stop_index flt (S k) n).
Proof. destruct flt; [reflexivity|apply index_in_S..]. Qed.

Lemma exec_closed flt : forall ops k final w tr,
  exec flt k ops final w tr =
  match stop_index flt k (length ops) with
  | None => {| r_trace := tr ++ map p_op ops; r_world := apply_all ops w; r_result := final |}
  | Some i => {| r_trace := tr ++ map p_op (firstn (S i) ops); r_world := apply_all (firstn i ops) w; r_result := stop_outcome flt |}
  end.
Proof.
  induction ops as [|o t IH]; intros k final w tr; cbn [length].
  - rewrite stop_index_0. cbn. rewrite app_nil_r. reflexivity.
  - rewrite stop_index_S. cbn [exec].
    destruct flt as [|m|m]; cbn [fault_at]; try destruct (m =? k)%nat; try reflexivity;
      rewrite IH; destruct (stop_index _ (S k) (length t));
      cbn [option_map firstn map apply_all fold_left]; rewrite <- app_assoc; reflexivity.
Qed.

Definition effect_free (o : pop) : Prop := forall x, p_eff o x = x.

Lemma apply_effect_free ops w : Forall effect_free ops -> apply_all ops w = w.
Proof. unfold apply_all. induction 1 as [|o t Ho Ht IH]; cbn [fold_left]; [reflexivity|]. rewrite Ho. exact IH. Qed.

Lemma exec_effect_free flt ops final w : Forall effect_free ops -> r_world (exec flt 0 ops final w []) = w.
Proof.
  intros H. rewrite exec_closed.
  destruct (stop_index flt 0 (length ops)); cbn [r_world]; apply apply_effect_free; [apply Forall_firstn|]; exact H.
Qed.

Lemma exec_trace_incl flt ops final w o : In o (r_trace (exec flt 0 ops final w [])) -> In o (map p_op ops).
Proof.
  rewrite exec_closed. destruct (stop_index flt 0 (length ops)); cbn [r_trace app]; [|auto].
  rewrite <- firstn_map. apply In_firstn.
Qed.

Section P.
Variable compute : list Z -> computed.
Variable stdin_data : list Z.
Variable now : Z.

Notation plan := (plan compute stdin_data now).
Notation optimize_io := (optimize_io compute stdin_data now).

Definition dest_ok (inp : io_in) (outp : io_out) (p : path) : Prop :=
  match outp, inp with
  | OPath (Some d) _, _ => p = d
  | OPath None _, IPath q => p = q
  | _, _ => False
  end.

Definition writes_path (o : pop) (p : path) : Prop :=
  p_op o = OCreate p \/ p_op o = OWrite p \/ p_op o = OChmod p \/ p_op o = OUtimes p.

Definition no_write (o : pop) : Prop :=
  forall p, p_op o <> OCreate p /\ p_op o <> OWrite p /\ p_op o <> OChmod p /\ p_op o <> OUtimes p /\ p_op o <> OWriteStdout.

Lemma read_plan_reads fs inp pr :
  Forall effect_free (fst (read_plan stdin_data fs inp pr)) /\
  Forall no_write (fst (read_plan stdin_data fs inp pr)).
Proof.
  unfold read_plan. destruct inp as [q|]; [destruct (lookup fs q), pr|];
    split; repeat constructor; discriminate.
Qed.

Lemma file_plan_dest (Q : path -> Prop) d src pr bytes : Q d ->
  Forall (fun o => forall p, writes_path o p -> Q p) (file_plan now d src pr bytes).
Proof.
  intros Hd. unfold file_plan.
  destruct src, pr; repeat constructor; intros p [H|[H|[H|H]]]; cbn in H; try discriminate H; injection H as <-; exact Hd.
Qed.

Lemma stdout_plan_dest (Q : path -> Prop) bytes : Forall (fun o => forall p, writes_path o p -> Q p) (stdout_plan bytes).
Proof. repeat constructor; intros p [H|[H|[H|H]]]; discriminate H. Qed.

(* by route: nothing, standard output, or one file, which is the destination *)
Lemma write_plan_dest fs inp outp data :
  Forall (fun o => forall p, writes_path o p -> dest_ok inp outp p) (fst (write_plan compute now fs inp outp data)) /\
  (outp = ONone -> fst (write_plan compute now fs inp outp data) = []).
Proof.
  unfold write_plan. destruct (compute data) as [|out fo]; [split; [constructor|reflexivity]|].
  match goal with |- context [if ?b then _ else _] => destruct b end; [split; [constructor|reflexivity]|].
  destruct outp as [| |[d|] pr]; cbn [fst].
  - split; [constructor|reflexivity].
  - split; [apply stdout_plan_dest|discriminate].
  - split; [|discriminate]. destruct inp; apply file_plan_dest; reflexivity.
  - split; [|discriminate]. destruct inp; [apply file_plan_dest; reflexivity|apply stdout_plan_dest].
Qed.

(* structure of the plan: reads (no effects), then the computation, then the writes *)
Lemma plan_structure fs inp outp :
  exists reads writes,
    (fst (plan fs inp outp) = reads \/ fst (plan fs inp outp) = reads ++ [noeff OCompute] ++ writes) /\
    Forall effect_free reads /\
    Forall (fun o => forall p, writes_path o p -> dest_ok inp outp p) writes /\
    Forall no_write reads /\
    (outp = ONone -> writes = []).
Proof.
  unfold Io.plan. set (preserve := match outp with OPath _ true => true | _ => false end).
  destruct (read_plan_reads fs inp preserve) as [Hr1 Hr2].
  destruct (read_plan stdin_data fs inp preserve) as [reads [data|]]; cbn [fst] in *.
  - destruct (write_plan_dest fs inp outp data) as [Hw1 Hw2].
    destruct (write_plan compute now fs inp outp data) as [writes final]. exists reads, writes.
    exact (conj (or_intror eq_refl) (conj Hr1 (conj Hw1 (conj Hr2 Hw2)))).
  - exists reads, [].
    exact (conj (or_introl eq_refl) (conj Hr1 (conj (Forall_nil _) (conj Hr2 (fun _ => eq_refl))))).
Qed.

(* C12: whatever fails, or wherever the process dies, up to and including the computation (also when
   reading or optimising fails by itself), the file system and standard output are exactly as before *)
Theorem untouched_until_computed flt fs inp outp reads writes :
  fst (plan fs inp outp) = reads \/ fst (plan fs inp outp) = reads ++ [noeff OCompute] ++ writes ->
  Forall effect_free reads ->
  (* the run stops at an operation of the read phase or at the computation … *)
  (forall i, stop_index flt 0 (length (fst (plan fs inp outp))) = Some i -> (i <= length reads)%nat) ->
  (* … or it is not stopped but the plan ends there (reading / optimising failed, nothing to write) *)
  (stop_index flt 0 (length (fst (plan fs inp outp))) = None -> writes = [] \/ fst (plan fs inp outp) = reads) ->
  r_world (optimize_io flt fs inp outp) = (fs, []).
Proof.
  intros Hs Hr Hstop Hnone. unfold Io.optimize_io. destruct (plan fs inp outp) as [ops final] eqn:Ep. cbn [fst] in *.
  rewrite exec_closed.
  destruct (stop_index flt 0 (length ops)) as [i|] eqn:Ei.
  - cbn [r_world]. apply apply_effect_free. specialize (Hstop i eq_refl).
    destruct Hs as [-> | ->].
    + apply Forall_firstn. exact Hr.
    + rewrite firstn_app. replace (i - length reads)%nat with O by lia. cbn [firstn]. rewrite app_nil_r. apply Forall_firstn. exact Hr.
  - cbn [r_world]. apply apply_effect_free. destruct (Hnone eq_refl) as [-> | E].
    + destruct Hs as [-> | ->]; [exact Hr|]. apply Forall_app. split; [exact Hr|]. repeat constructor.
    + rewrite E. exact Hr.
Qed.

(* any failure of an operation the process performs -- read, create, chmod, write, flush, utimes,
   on a file or on standard output -- is reported as an error, never as success *)
Theorem failures_reported fs inp outp k :
  (k < length (fst (plan fs inp outp)))%nat ->
  r_result (optimize_io (FailAt k) fs inp outp) = Done_err.
Proof.
  intros Hk. unfold Io.optimize_io. destruct (plan fs inp outp) as [ops final]. cbn [fst] in Hk.
  rewrite exec_closed. unfold stop_index.
  assert (E : ((0 <=? k)%nat && (k <? 0 + length ops)%nat) = true) by (apply andb_true_iff; split; [apply Nat.leb_le|apply Nat.ltb_lt]; lia).
  rewrite E. reflexivity.
Qed.

(* --pretend: nothing is ever touched, whatever happens *)
Theorem pretend_touches_nothing flt fs inp :
  r_world (optimize_io flt fs inp ONone) = (fs, []).
Proof.
  destruct (plan_structure fs inp ONone) as (reads & writes & Hs & Hr & _ & _ & Hw). rewrite (Hw eq_refl) in Hs.
  unfold Io.optimize_io. destruct (plan fs inp ONone) as [ops final]. cbn [fst] in Hs. apply exec_effect_free.
  destruct Hs as [-> | ->]; [exact Hr|]. apply Forall_app. split; [exact Hr|]. repeat constructor.
Qed.

(* only the destination is ever created / written / chmod-ed / touched; with a separate destination
   the input is never opened for writing *)
Theorem only_destination_written flt fs inp outp o p :
  In o (r_trace (optimize_io flt fs inp outp)) ->
  (o = OCreate p \/ o = OWrite p \/ o = OChmod p \/ o = OUtimes p) -> dest_ok inp outp p.
Proof.
  intros Hin Ho.
  destruct (plan_structure fs inp outp) as (reads & writes & Hs & _ & Hw & Hr2 & _).
  unfold Io.optimize_io in Hin. destruct (plan fs inp outp) as [ops final]. cbn [fst] in Hs.
  apply exec_trace_incl, in_map_iff in Hin. destruct Hin as [x [Ex Hx]].
  assert (Hcase : In x reads \/ x = noeff OCompute \/ In x writes).
  { destruct Hs as [-> | ->]; [left; exact Hx|]. apply in_app_or in Hx. destruct Hx as [Hx|[<-|Hx]]; auto. }
  destruct Hcase as [Hx1|[->|Hx1]].
  - rewrite Forall_forall in Hr2. destruct (Hr2 x Hx1 p) as (A & B & C & D & _). rewrite Ex in *.
    destruct Ho as [->|[->|[->| ->]]]; contradiction.
  - cbn in Ex. subst o. destruct Ho as [H|[H|[H|H]]]; discriminate.
  - rewrite Forall_forall in Hw. apply (Hw x Hx1 p). unfold writes_path. rewrite Ex. exact Ho.
Qed.

(* in place and no improvement: no write operation at all (C04, routing half) *)
Theorem no_write_when_not_improved_in_place fs q pres flt in_data out :
  lookup fs q = Some in_data -> compute (f_content in_data) = COut out true ->
  forall o, In o (r_trace (optimize_io flt fs (IPath q) (OPath None pres))) ->
    match o with OCreate _ | OWrite _ | OChmod _ | OUtimes _ | OWriteStdout => False | _ => True end.
Proof.
  intros Hl Hc o Hin. unfold Io.optimize_io, Io.plan, read_plan, write_plan in Hin. rewrite Hl, Hc in Hin.
  apply exec_trace_incl in Hin. destruct pres; cbn in Hin; repeat (destruct Hin as [<-|Hin]; [exact I|]); destruct Hin.
Qed.

Lemma run_from_file fs q fin outp : lookup fs q = Some fin ->
  let wp := write_plan compute now fs (IPath q) outp (f_content fin) in
  r_world (optimize_io NoFault fs (IPath q) outp) = apply_all (fst wp) (fs, []) /\
  r_result (optimize_io NoFault fs (IPath q) outp) = snd wp.
Proof.
  intros Hl. unfold Io.optimize_io, Io.plan, read_plan. rewrite Hl.
  destruct (write_plan _ _ _ _ _ _) as [writes final]. rewrite exec_closed. cbn [stop_index r_world r_result fst snd].
  split; [|reflexivity]. unfold apply_all. rewrite !fold_left_app. destruct outp as [| |? []]; reflexivity.
Qed.

Lemma file_plan_result d src pres bytes w :
  exists g, lookup (fst (apply_all (file_plan now d src pres bytes) w)) d = Some g /\ f_content g = bytes /\
    (pres = true -> forall f, src = Some f -> f_mode g = f_mode f /\ f_mtime g = f_mtime f /\ f_atime g = f_atime f).
Proof.
  unfold apply_all, file_plan.
  destruct src as [f0|], pres; cbn [app fold_left p_eff noeff];
    unfold eff_create, eff_chmod, eff_write, eff_utimes;
    repeat (cbn [fst snd lookup update]; rewrite Z.eqb_refl);
    (eexists; split; [reflexivity|]; split; [reflexivity|]); try discriminate.
  intros _ f [= <-]. auto.
Qed.

(* a different destination receives the ORIGINAL bytes when there is no improvement (C04) *)
Theorem copy_of_original_when_not_improved fs q d pres fin out :
  lookup fs q = Some fin -> compute (f_content fin) = COut out true -> (d =? q) = false ->
  exists g, lookup (fst (r_world (optimize_io NoFault fs (IPath q) (OPath (Some d) pres)))) d = Some g /\ f_content g = f_content fin.
Proof.
  intros Hl Hc Hd. destruct (run_from_file fs q fin (OPath (Some d) pres) Hl) as [-> _].
  unfold write_plan. rewrite Hc, Hd. cbn [andb fst].
  destruct (file_plan_result d (lookup fs q) (if pres then true else false) (f_content fin) (fs, [])) as (g & Hg & Hb & _).
  exists g. auto.
Qed.

(* --preserve gives the destination the input's permission bits and timestamps *)
Theorem preserve_copies_mode_and_times fs q d fin :
  lookup fs q = Some fin ->
  r_result (optimize_io NoFault fs (IPath q) (OPath (Some d) true)) = Done_ok ->
  (exists g, lookup (fst (r_world (optimize_io NoFault fs (IPath q) (OPath (Some d) true)))) d = Some g /\
             f_mode g = f_mode fin /\ f_mtime g = f_mtime fin /\ f_atime g = f_atime fin) \/
  (* … unless nothing was written (in place, not improved) *)
  r_world (optimize_io NoFault fs (IPath q) (OPath (Some d) true)) = (fs, []).
Proof.
  intros Hl. destruct (run_from_file fs q fin (OPath (Some d) true) Hl) as [-> ->].
  unfold write_plan. destruct (compute (f_content fin)) as [|out fo]; [discriminate|].
  destruct (fo && (d =? q)); [right; reflexivity|]. intros _. left. cbn [fst].
  destruct (file_plan_result d (lookup fs q) true (if fo then f_content fin else out) (fs, [])) as (g & Hg & _ & Hp).
  exists g. split; [exact Hg|]. apply Hp; [reflexivity|exact Hl].
Qed.
End P.
