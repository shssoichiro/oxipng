(* The greedy loop of mzeng_reindex: every used index is placed or pending, and the sum of a pending entry dominates its co-occurrence
   with every placed index. zero_sums_all_placed is why the phantom choice (0, 0), made when no sum is positive, never displaces a used index. *)
From OxiVerif Require Import Base.Common Base.ListFacts Model.Palette.
From OxiVerif Require Import Proofs.CoocMatrix Proofs.SortGraph.
Local Open Scope Z_scope.

Lemma swap_remove_snoc {A} (r : list A) a pos :
  swap_remove (r ++ [a]) pos = if (pos =? length r)%nat then r else set_nth pos a r.
Proof. unfold swap_remove. rewrite rev_unit, removelast_last, app_length, Nat.add_sub. reflexivity. Qed.

Lemma swap_remove_length {A} (l : list A) pos : l <> [] -> length (swap_remove l pos) = (length l - 1)%nat.
Proof.
  destruct l as [|a r _] using rev_ind; [contradiction|]. intros _. rewrite swap_remove_snoc, app_length, Nat.add_sub.
  destruct (pos =? length r)%nat; [reflexivity|apply set_nth_length].
Qed.

Lemma swap_remove_in {A} (l : list A) pos x : In x (swap_remove l pos) -> In x l.
Proof.
  destruct l as [|a r _] using rev_ind; [intros []|]. rewrite swap_remove_snoc, in_app_iff. cbn [In].
  destruct (pos =? length r)%nat; [tauto|]. intros H. apply In_set_nth in H. destruct H as [[-> _]|H]; tauto.
Qed.

Lemma swap_remove_keep {A} (l : list A) pos x : (pos < length l)%nat -> In x l -> nth_error l pos = Some x \/ In x (swap_remove l pos).
Proof.
  destruct l as [|a r _] using rev_ind; [intros _ []|]. rewrite swap_remove_snoc, app_length, in_app_iff. cbn [length In]. intros Hpos Hx.
  destruct (Nat.eqb_spec pos (length r)) as [->|Hne].
  - destruct Hx as [Hx|[<-|[]]]; [right; exact Hx|left]. rewrite nth_error_app2, Nat.sub_diag by lia. reflexivity.
  - rewrite nth_error_app1 by lia. destruct Hx as [Hx|[<-|[]]]; [apply set_nth_keep; exact Hx|right].
    apply (nth_error_In _ pos). apply nth_error_set_nth_eq. lia.
Qed.

Definition mzeng_upd (m : matrix) (bi : Z) (cs : Z * Z) : Z * Z := (fst cs, snd cs + mget m bi (fst cs)).

(* what a round starts from, as far as the proof needs it: an entry of the list with its position (in the code: the first maximum,
   when it is positive), or the phantom (0, 0) when no sum is positive *)
Definition best_ok (Sm : list (Z * Z)) (bp : nat) (b : Z * Z) : Prop :=
  nth_error Sm bp = Some b \/ (b = (0, 0) /\ forall c s, In (c, s) Sm -> s <= 0).

Lemma best_ok_nil : best_ok [] 0 (0, 0).
Proof. right. split; [reflexivity|intros c s []]. Qed.

(* the comparison that both scans make at each entry: a strictly larger sum replaces the best so far *)
Lemma best_ok_snoc sums bp b c s bp' b' : best_ok sums bp b ->
  (if snd b <? s then (length sums, (c, s)) else (bp, b)) = (bp', b') -> best_ok (sums ++ [(c, s)]) bp' b'.
Proof.
  intros Hb E. destruct (Z.ltb_spec (snd b) s) as [Hlt|Hge]; injection E as <- <-.
  - left. rewrite nth_error_app2, Nat.sub_diag by lia. reflexivity.
  - destruct Hb as [Hn|[-> Hz]].
    + left. rewrite nth_error_app1; [exact Hn|]. apply nth_error_Some. rewrite Hn. discriminate.
    + right. split; [reflexivity|]. intros c0 s0 Hin. apply in_app_or in Hin. destruct Hin as [Hin|[[= <- <-]|[]]]; [exact (Hz c0 s0 Hin)|exact Hge].
Qed.

(* Every sum grows by the co-occurrence with the index just placed; pre is the part of the list already scanned. *)
Lemma mzeng_update_spec m bi : forall sums pre bp b S' bp' b',
  mzeng_update sums (length pre) bi m bp b = (S', bp', b') -> best_ok pre bp b ->
  S' = map (mzeng_upd m bi) sums /\ best_ok (pre ++ S') bp' b'.
Proof.
  induction sums as [|[c s] t IH]; intros pre bp b S' bp' b' H B; cbn [mzeng_update] in H.
  - injection H as <- <- <-. rewrite app_nil_r. split; [reflexivity|exact B].
  - destruct (if snd b <? _ then _ else _) as [bp1 b1] eqn:E1. apply (best_ok_snoc _ _ _ _ _ _ _ B) in E1.
    replace (S (length pre)) with (length (pre ++ [(c, s + mget m bi c)])) in H by (rewrite app_length; cbn; lia).
    destruct (mzeng_update t _ bi m bp1 b1) as [[t' bp2] b2] eqn:E. injection H as <- <- <-.
    destruct (IH _ _ _ _ _ _ E E1) as [-> B2]. rewrite <- app_assoc in B2. split; [reflexivity|exact B2].
Qed.

Lemma in_front_or_back {A} (c : bool) (x : A) l y : In y (if c then x :: l else l ++ [x]) <-> In y (x :: l).
Proof. destruct c; [cbn; tauto|]. rewrite in_app_iff. cbn. tauto. Qed.

Lemma length_front_or_back {A} (c : bool) (x : A) l : length (if c then x :: l else l ++ [x]) = S (length l).
Proof. destruct c; [reflexivity|]. rewrite app_length. cbn. lia. Qed.

Lemma mzeng_loop_nil fuel nn m R bp b : mzeng_loop fuel nn m R [] bp b = R.
Proof. destruct fuel; reflexivity. Qed.

(* One round: the best index is placed at the front or the back, its entry is removed and the other sums are updated. *)
Lemma mzeng_loop_S f nn m R Sm bp b : Sm <> [] ->
  let bi := fst b in
  let R' := if 0 <? mzeng_delta R 0 (nn - lenZ Sm) bi m then bi :: R else R ++ [bi] in
  exists bp2 b2, best_ok (map (mzeng_upd m bi) (swap_remove Sm bp)) bp2 b2 /\
    mzeng_loop (S f) nn m R Sm bp b = mzeng_loop f nn m R' (map (mzeng_upd m bi) (swap_remove Sm bp)) bp2 b2.
Proof.
  intros Hne bi R'. destruct (mzeng_update (swap_remove Sm bp) 0 bi m 0 (0, 0)) as [[S2 bp2] b2] eqn:Eu.
  destruct (mzeng_update_spec m bi _ [] _ _ _ _ _ Eu best_ok_nil) as [-> B]. exists bp2, b2. split; [exact B|].
  cbn [mzeng_loop]. destruct Sm as [|s0 Sm']; [contradiction|]. fold bi. fold R'.
  destruct (swap_remove (s0 :: Sm') bp); [rewrite mzeng_loop_nil; reflexivity|]. rewrite Eu. reflexivity.
Qed.

Lemma mzeng_loop_length m nn : forall fuel R Sm bp b, (length Sm <= fuel)%nat ->
  length (mzeng_loop fuel nn m R Sm bp b) = (length R + length Sm)%nat.
Proof.
  induction fuel as [|f IH]; intros R Sm bp b Hf; (destruct Sm as [|s0 Sm']; [rewrite mzeng_loop_nil; cbn; lia|]); [cbn in Hf; lia|].
  destruct (mzeng_loop_S f nn m R (s0 :: Sm') bp b ltac:(discriminate)) as (bp2 & b2 & _ & ->).
  assert (Hl : length (map (mzeng_upd m (fst b)) (swap_remove (s0 :: Sm') bp)) = length Sm')
    by (rewrite map_length, swap_remove_length by discriminate; cbn; lia).
  rewrite IH, length_front_or_back, Hl; cbn [length] in *; lia.
Qed.

(* the initial state: every index but e0 and e1, with its co-occurrence with these two *)
Definition mzeng_keep (e0 e1 : Z) (z : Z) : bool := negb ((z =? e0) || (z =? e1)).
Definition mzeng_init_sum (m : matrix) (e0 e1 c : Z) : Z * Z := (c, mget m c e0 + mget m c e1).

Section Loop.
Variable n : nat.
Variable m : matrix.
Variable vs : list Z.
Hypothesis HI : cooc_inv n m vs.

Definition covers_state (R : list Z) (Sm : list (Z * Z)) : Prop := forall c, In c vs -> In c R \/ In c (map fst Sm).
Definition sums_ok (R : list Z) (Sm : list (Z * Z)) : Prop :=
  forall c s, In (c, s) Sm -> 0 <= s /\ 0 <= c /\ forall r, In r R -> mget m c r <= s.
Definition has_used (R : list Z) : Prop := exists r, In r R /\ In r vs.

Lemma zero_sums_all_placed R Sm : covers_state R Sm -> sums_ok R Sm -> has_used R ->
  (forall c s, In (c, s) Sm -> s <= 0) -> forall c, In c vs -> In c R.
Proof.
  intros Hc Hs (r0 & Hr0 & Ur0) Hz c Uc.
  destruct (in_dec Z.eq_dec c R) as [|Hnc]; [assumption|exfalso].
  (* a pending value has no co-occurrence with a placed one, since its sum is 0 *)
  assert (K : forall u r, In u vs -> ~ In u R -> In r R -> 1 <= mget m u r -> False).
  { intros u r Uu Hu Hr Hur. destruct (Hc u Uu) as [|Hin]; [contradiction|]. apply in_map_iff in Hin. destruct Hin as [[u' s] [E Hin]].
    cbn [fst] in E. subst u'. destruct (Hs u s Hin) as (_ & _ & Hle). specialize (Hle r Hr). specialize (Hz u s Hin). lia. }
  (* but the sequence passes from placed to pending values somewhere *)
  destruct (seq_connect (fun v => In v R) (fun v => ~ In v R) ltac:(intros v A B; exact (B A)) vs) as (x & y & Hxy & C).
  - intros v _. destruct (in_dec Z.eq_dec v R); [left|right]; assumption.
  - exists r0. split; assumption.
  - exists c. split; assumption.
  - destruct (adjacent_in _ _ _ Hxy) as [Ix Iy]. pose proof (ci_in_range _ _ _ x HI Ix) as Hx. pose proof (ci_in_range _ _ _ y HI Iy) as Hy.
    pose proof (ci_adj _ _ _ HI x y Hxy) as Axy. destruct C as [[Px Py]|[Px Py]].
    + apply (K y x Iy Py Px). rewrite (ci_sym _ _ _ HI y x) by lia. exact Axy.
    + exact (K x y Ix Px Py Axy).
Qed.

(* zero_sums_all_placed under one more premise, which the argument does not use *)
Lemma all_zero_all_placed R Sm : covers_state R Sm -> sums_ok R Sm -> has_used R -> Forall (fun r => 0 <= r) R ->
  (forall c s, In (c, s) Sm -> s <= 0) -> forall c, In c vs -> In c R.
Proof. intros Hc Hs Hu _. exact (zero_sums_all_placed R Sm Hc Hs Hu). Qed.

Record loop_inv (R : list Z) (Sm : list (Z * Z)) (bp : nat) (b : Z * Z) : Prop := {
  li_covers : covers_state R Sm;
  li_sums : sums_ok R Sm;
  li_best : best_ok Sm bp b;
  li_used : has_used R
}.

Lemma loop_inv_step R Sm bp b R' bp2 b2 : loop_inv R Sm bp b ->
  (forall x, In x R' <-> In x (fst b :: R)) ->
  let S2 := map (mzeng_upd m (fst b)) (swap_remove Sm bp) in
  best_ok S2 bp2 b2 -> loop_inv R' S2 bp2 b2.
Proof.
  intros [Hc Hs Hb Hu] HR' S2 Hbest. unfold S2. set (bi := fst b) in *.
  (* the removed entry is the one placed, or nothing is pending *)
  assert (Hstep : covers_state R' (swap_remove Sm bp) /\ 0 <= bi).
  { destruct Hb as [Hnth|[-> Hz]].
    - assert (Hbp : (bp < length Sm)%nat) by (apply nth_error_Some; rewrite Hnth; discriminate).
      destruct b as [cb sb]. destruct (Hs cb sb (nth_error_In _ _ Hnth)) as (_ & Hcb & _). split; [|exact Hcb].
      intros c Uc. destruct (Hc c Uc) as [Hr|Hin]; [left; apply HR'; right; exact Hr|].
      apply in_map_iff in Hin. destruct Hin as [[c' s] [E Hin]]. cbn [fst] in E. subst c'.
      destruct (swap_remove_keep Sm bp (c, s) Hbp Hin) as [Heq|Hk].
      + rewrite Hnth in Heq. injection Heq as <- <-. left. apply HR'. left. reflexivity.
      + right. apply (in_map fst _ _ Hk).
    - split; [|cbn; lia]. intros c Uc. left. apply HR'. right. exact (zero_sums_all_placed R Sm Hc Hs Hu Hz c Uc). }
  destruct Hstep as [Hc1 Hbi]. constructor.
  - intros c Uc. rewrite map_map. exact (Hc1 c Uc).
  - intros c s Hin. apply in_map_iff in Hin. destruct Hin as [[c0 s0] [[= <- <-] Hin]]. cbn [fst snd].
    apply swap_remove_in in Hin. destruct (Hs c0 s0 Hin) as (H0 & Hc0 & Hle).
    pose proof (ci_nonneg _ _ _ HI bi c0 Hbi Hc0). split; [lia|]. split; [exact Hc0|].
    intros r Hr. apply HR' in Hr. destruct Hr as [<-|Hr]; [rewrite (ci_sym _ _ _ HI c0 bi) by lia; lia|specialize (Hle r Hr); lia].
  - exact Hbest.
  - destruct Hu as (r & Hr & Ur). exists r. split; [apply HR'; right; exact Hr|exact Ur].
Qed.

Lemma loop_covers : forall fuel R Sm bp b, (length Sm <= fuel)%nat -> loop_inv R Sm bp b ->
  forall c, In c vs -> In c (mzeng_loop fuel (Z.of_nat n) m R Sm bp b).
Proof.
  induction fuel as [|f IH]; intros R Sm bp b Hf I;
    (destruct Sm as [|s0 Sm']; [rewrite mzeng_loop_nil; intros c Uc; destruct (li_covers _ _ _ _ I c Uc) as [|[]]; assumption|]);
    [cbn in Hf; lia|].
  destruct (mzeng_loop_S f (Z.of_nat n) m R (s0 :: Sm') bp b ltac:(discriminate)) as (bp2 & b2 & B & ->). apply IH.
  - rewrite map_length, swap_remove_length by discriminate. cbn [length] in *. lia.
  - exact (loop_inv_step _ _ _ _ _ _ _ I (in_front_or_back _ _ _) B).
Qed.

Lemma init_loop_inv e0 e1 bp b : 0 <= e0 -> 0 <= e1 -> In e0 vs ->
  let S0 := map (mzeng_init_sum m e0 e1) (List.filter (mzeng_keep e0 e1) (map Z.of_nat (seq 0 n))) in
  best_ok S0 bp b -> loop_inv [e0; e1] S0 bp b.
Proof.
  intros He0 He1 Ue0 S0 B. constructor.
  - intros c Uc. pose proof (ci_in_range _ _ _ c HI Uc) as Rc. destruct (Z.eq_dec c e0) as [->|N0]; [left; left; reflexivity|].
    destruct (Z.eq_dec c e1) as [->|N1]; [left; right; left; reflexivity|]. right. unfold S0. rewrite map_map. cbn [mzeng_init_sum fst]. rewrite map_id.
    apply filter_In. split.
    + apply in_map_iff. exists (Z.to_nat c). split; [lia|apply in_seq; lia].
    + unfold mzeng_keep. destruct (Z.eqb_spec c e0); [contradiction|]. destruct (Z.eqb_spec c e1); [contradiction|]. reflexivity.
  - intros c s Hin. apply in_map_iff in Hin. destruct Hin as (c' & [= <- <-] & Hin). apply filter_In in Hin. destruct Hin as [Hin _].
    apply in_map_iff in Hin. destruct Hin as (k & <- & _).
    pose proof (ci_nonneg _ _ _ HI (Z.of_nat k) e0 ltac:(lia) He0). pose proof (ci_nonneg _ _ _ HI (Z.of_nat k) e1 ltac:(lia) He1).
    split; [lia|]. split; [lia|]. intros r [<-|[<-|[]]]; lia.
  - exact B.
  - exists e0. split; [left; reflexivity|exact Ue0].
Qed.
End Loop.

Definition mzeng_init_step (m : matrix) (e0 e1 : Z) (acc : list (Z * Z) * nat * (Z * Z)) (i : nat) : list (Z * Z) * nat * (Z * Z) :=
  let '(sums, bp, b) := acc in
  let iz := Z.of_nat i in
  if (iz =? e0) || (iz =? e1) then acc else
  let s := mget m iz e0 + mget m iz e1 in
  let '(bp', b') := if snd b <? s then (length sums, (iz, s)) else (bp, b) in
  (sums ++ [(iz, s)], bp', b').

Lemma init_fold m e0 e1 : forall l sums bp b, best_ok sums bp b ->
  exists sums' bp' b', fold_left (mzeng_init_step m e0 e1) l (sums, bp, b) = (sums', bp', b') /\ best_ok sums' bp' b' /\
    sums' = sums ++ map (mzeng_init_sum m e0 e1) (List.filter (mzeng_keep e0 e1) (map Z.of_nat l)).
Proof.
  induction l as [|i t IH]; intros sums bp b Hb; cbn [fold_left map List.filter].
  - exists sums, bp, b. rewrite app_nil_r. auto.
  - unfold mzeng_init_step at 2. unfold mzeng_keep at 1. destruct ((Z.of_nat i =? e0) || (Z.of_nat i =? e1)); cbn [negb]; [exact (IH sums bp b Hb)|].
    destruct (if snd b <? _ then _ else _) as [bp1 b1] eqn:E1.
    destruct (IH _ bp1 b1 (best_ok_snoc _ _ _ _ _ _ _ Hb E1)) as (sums' & bp' & b' & E & B & ->). rewrite <- app_assoc in E, B.
    eexists _, bp', b'. split; [exact E|split; [exact B|reflexivity]].
Qed.

(* of 0 .. n-1, all but e0 and e1 get an initial sum *)
Lemma init_keys_length e0 e1 n : 0 <= e0 -> 0 <= e1 -> e0 <> e1 ->
  lenZ (List.filter (mzeng_keep e0 e1) (map Z.of_nat (seq 0 n))) + (if e0 <? Z.of_nat n then 1 else 0) + (if e1 <? Z.of_nat n then 1 else 0) = Z.of_nat n.
Proof.
  intros H0 H1 Hne. unfold lenZ. induction n as [|n IH].
  - destruct (Z.ltb_spec e0 (Z.of_nat 0)), (Z.ltb_spec e1 (Z.of_nat 0)); cbn; lia.
  - rewrite seq_S, map_app, filter_app, app_length. cbn [map List.filter Nat.add]. unfold mzeng_keep at 2.
    destruct (Z.eqb_spec (Z.of_nat n) e0), (Z.eqb_spec (Z.of_nat n) e1), (Z.ltb_spec e0 (Z.of_nat n)), (Z.ltb_spec e1 (Z.of_nat n)),
      (Z.ltb_spec e0 (Z.of_nat (S n))), (Z.ltb_spec e1 (Z.of_nat (S n))); cbn [orb negb length] in *; lia.
Qed.

Lemma mzeng_reindex_eq n m R : mzeng_reindex n (weighted_edges m) m = Ok R -> exists e0 e1 rest S0 bp0 b0,
  weighted_edges m = (e0, e1) :: rest /\ 0 <= e0 /\ 0 <= e1 /\ (length S0 + 2 = length m)%nat /\
  R = mzeng_loop (length m) (Z.of_nat n) m [e0; e1] S0 bp0 b0 /\ best_ok S0 bp0 b0 /\
  S0 = map (mzeng_init_sum m e0 e1) (List.filter (mzeng_keep e0 e1) (map Z.of_nat (seq 0 (length m)))).
Proof.
  intros H. destruct (weighted_edges m) as [|[e0 e1] rest] eqn:Ew; [discriminate|].
  destruct (weighted_edges_head m e0 e1 rest Ew) as (He0 & He1 & _).
  destruct (init_fold m e0 e1 (seq 0 (length m)) [] 0%nat (0, 0) best_ok_nil) as (S0 & bp0 & b0 & E & B & ->).
  eexists e0, e1, rest, _, bp0, b0. split; [reflexivity|]. split; [lia|]. split; [lia|]. split; [|split; [|split; [exact B|reflexivity]]].
  - pose proof (init_keys_length e0 e1 (length m) ltac:(lia) ltac:(lia) ltac:(lia)) as Hk. unfold lenZ in *. cbn [app]. rewrite map_length.
    destruct (Z.ltb_spec e0 (Z.of_nat (length m))), (Z.ltb_spec e1 (Z.of_nat (length m))); lia.
  - unfold mzeng_reindex in H. change (fold_left _ (seq 0 (length m)) _) with (fold_left (mzeng_init_step m e0 e1) (seq 0 (length m)) ([], 0%nat, (0, 0))) in H.
    rewrite E in H. injection H as <-. reflexivity.
Qed.

Lemma mzeng_reindex_length n m R : length m = n -> mzeng_reindex n (weighted_edges m) m = Ok R -> length R = n.
Proof.
  intros Hlm H. destruct (mzeng_reindex_eq n m R H) as (e0 & e1 & rest & S0 & bp0 & b0 & _ & _ & _ & Hl & -> & _).
  rewrite mzeng_loop_length; cbn [length]; lia.
Qed.

(* An adjacent pair of different values is counted, so the heaviest edge has positive weight and joins two used values. *)
Lemma first_edge_used n m vs e0 e1 rest : cooc_inv n m vs -> (exists a b, adjacent a b vs /\ a <> b) ->
  weighted_edges m = (e0, e1) :: rest -> In e0 vs /\ In e1 vs.
Proof.
  intros HI (a & b & Hab & Hne) Ew.
  destruct (weighted_edges_head m e0 e1 rest Ew) as (He0 & He1 & Hmax).
  destruct (adjacent_in _ _ _ Hab) as [Ia Ib]. pose proof (ci_in_range _ _ _ a HI Ia) as Ra. pose proof (ci_in_range _ _ _ b HI Ib) as Rb.
  pose proof (ci_adj _ _ _ HI a b Hab) as Wab. destruct (ci_shape _ _ _ HI) as [Hlm _]. unfold lenZ in *. rewrite Hlm in *.
  assert (Wmax : 1 <= mget m e1 e0).
  { destruct (Z_lt_dec a b).
    - specialize (Hmax a b ltac:(lia) ltac:(lia)). rewrite (ci_sym _ _ _ HI b a) in Hmax by lia. lia.
    - specialize (Hmax b a ltac:(lia) ltac:(lia)). lia. }
  destruct (ci_used _ _ _ HI e1 e0 ltac:(lia) ltac:(lia) ltac:(lia)). split; assumption.
Qed.

Theorem mzeng_reindex_covers (n : nat) m vs R :
  cooc_inv n m vs ->
  (exists a b, adjacent a b vs /\ a <> b) ->
  mzeng_reindex n (weighted_edges m) m = Ok R ->
  forall c, In c vs -> In c R.
Proof.
  intros HI Htwo H. destruct (mzeng_reindex_eq n m R H) as (e0 & e1 & rest & S0 & bp0 & b0 & Ew & He0 & He1 & Hl & -> & B0 & ->).
  destruct (first_edge_used n m vs e0 e1 rest HI Htwo Ew) as [Ue0 _].
  apply (loop_covers n m vs HI); [lia|]. destruct (ci_shape _ _ _ HI) as [<- _]. apply init_loop_inv; assumption.
Qed.
