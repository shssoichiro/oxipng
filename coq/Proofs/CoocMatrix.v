(* Co-occurrence matrix facts for the palette sorters (mzeng / battiato): shape, symmetry, non-negativity, every consecutive pair of
   the pixel sequence is counted, and only values that occur are counted. *)
From OxiVerif Require Import Base.Common Base.ListFacts Model.ScanLines Model.Palette.
Local Open Scope Z_scope.

Definition shape (n : nat) (m : matrix) : Prop := length m = n /\ Forall (fun r => length r = n) m.

Lemma shape_row n m i : shape n m -> (i < n)%nat -> length (nth i m []) = n.
Proof. intros [Hl Hr] Hi. rewrite Forall_forall in Hr. apply Hr. apply nth_In. lia. Qed.

Lemma shape_mincr n m i j : shape n m -> shape n (mincr m i j).
Proof.
  intros [Hl Hr]. unfold mincr. split; [rewrite set_nth_length; exact Hl|].
  rewrite Forall_forall in *. intros r Hr'. apply In_set_nth in Hr'. destruct Hr' as [[-> Hi]|Hr']; [|apply Hr; exact Hr'].
  unfold incr_nth. rewrite set_nth_length. apply Hr. apply nth_In. exact Hi.
Qed.

Lemma nth_incr_nth j l k : (Z.to_nat j < length l)%nat ->
  nth k (incr_nth j l) 0 = nth k l 0 + (if (k =? Z.to_nat j)%nat then 1 else 0).
Proof.
  intros Hj. unfold incr_nth, nthZ. rewrite nth_set_nth. apply Nat.ltb_lt in Hj. rewrite Hj, andb_true_r.
  destruct (Nat.eqb_spec k (Z.to_nat j)) as [->|]; lia.
Qed.

Lemma to_nat_eqb a b : 0 <= a -> 0 <= b -> (Z.to_nat a =? Z.to_nat b)%nat = (a =? b).
Proof. intros Ha Hb. destruct (Z.eqb_spec a b) as [->|]; [apply Nat.eqb_refl|apply Nat.eqb_neq; lia]. Qed.

Lemma mget_mincr n m i j a b : shape n m -> 0 <= i < Z.of_nat n -> 0 <= j < Z.of_nat n -> 0 <= a -> 0 <= b ->
  mget (mincr m i j) a b = mget m a b + (if (a =? i) && (b =? j) then 1 else 0).
Proof.
  intros Hs Hi Hj Ha Hb. unfold mget, mincr, nthZ. rewrite nth_set_nth, to_nat_eqb by lia.
  destruct (Z.eqb_spec a i) as [->|]; cbn [andb]; [|lia].
  rewrite (proj2 (Nat.ltb_lt _ _)) by (destruct Hs; lia).
  rewrite nth_incr_nth, to_nat_eqb by (rewrite ?(shape_row n m) by (assumption || lia); lia). reflexivity.
Qed.

Lemma mget_mincr2 n m p v a b : shape n m -> 0 <= p < Z.of_nat n -> 0 <= v < Z.of_nat n -> 0 <= a -> 0 <= b ->
  mget (mincr2 m p v) a b = mget m a b + (if (a =? p) && (b =? v) then 1 else 0) + (if (a =? v) && (b =? p) then 1 else 0).
Proof.
  intros Hs Hp Hv Ha Hb. unfold mincr2. rewrite (mget_mincr n) by (auto; apply shape_mincr; auto). rewrite (mget_mincr n) by auto. lia.
Qed.

Definition adjacent {A} (x y : A) (l : list A) : Prop := exists l1 l2, l = l1 ++ x :: y :: l2.

Lemma adjacent_snoc {A} (x y : A) l v : adjacent x y (l ++ [v]) -> adjacent x y l \/ ((exists l', l = l' ++ [x]) /\ y = v).
Proof.
  intros (l1 & l2 & E). destruct l2 as [|w l2' _] using rev_ind.
  - change (l1 ++ [x; y]) with (l1 ++ [x] ++ [y]) in E. rewrite app_assoc in E.
    apply app_inj_tail in E. destruct E as [-> ->]. right. split; [exists l1; reflexivity|reflexivity].
  - change (l1 ++ x :: y :: l2' ++ [w]) with (l1 ++ (x :: y :: l2') ++ [w]) in E. rewrite app_assoc in E.
    apply app_inj_tail in E. destruct E as [-> _]. left. exists l1, l2'. reflexivity.
Qed.

Record cooc_inv (n : nat) (m : matrix) (seen : list Z) : Prop := {
  ci_shape : shape n m;
  ci_range : Forall (fun v => 0 <= v < Z.of_nat n) seen;
  ci_nonneg : forall a b, 0 <= a -> 0 <= b -> 0 <= mget m a b;
  ci_sym : forall a b, 0 <= a -> 0 <= b -> mget m a b = mget m b a;
  ci_adj : forall x y, adjacent x y seen -> 1 <= mget m x y;
  ci_used : forall a b, 0 <= a -> 0 <= b -> 0 < mget m a b -> In a seen /\ In b seen
}.

Lemma adjacent_in {A} (x y : A) l : adjacent x y l -> In x l /\ In y l.
Proof. intros (l1 & l2 & ->). split; apply in_or_app; right; cbn; auto. Qed.

Lemma ci_in_range n m seen x : cooc_inv n m seen -> In x seen -> 0 <= x < Z.of_nat n.
Proof. intros I. revert x. apply Forall_forall. exact (ci_range n m seen I). Qed.

(* Counting the pair (p, v) once more keeps the invariant, also for a longer sequence whose only new adjacency is (p, v). *)
Lemma mincr2_inv n m seen seen' p v : cooc_inv n m seen ->
  Forall (fun v => 0 <= v < Z.of_nat n) seen' -> incl seen seen' -> In p seen' -> In v seen' ->
  (forall x y, adjacent x y seen' -> adjacent x y seen \/ (x = p /\ y = v)) ->
  cooc_inv n (mincr2 m p v) seen'.
Proof.
  intros [S _ N Y A U] R' Hincl Ip Iv Hadj. pose proof R' as Rg. rewrite Forall_forall in Rg.
  pose proof (Rg p Ip) as Hp. pose proof (Rg v Iv) as Hv.
  constructor.
  - unfold mincr2. apply shape_mincr. apply shape_mincr. exact S.
  - exact R'.
  - intros a b Ha Hb. rewrite (mget_mincr2 n) by assumption. specialize (N a b Ha Hb). destruct (_ && _), (_ && _); lia.
  - intros a b Ha Hb. rewrite !(mget_mincr2 n) by assumption. rewrite (Y a b Ha Hb), (andb_comm (b =? p)), (andb_comm (b =? v)). lia.
  - intros x y Hxy. destruct (adjacent_in _ _ _ Hxy) as [Ix Iy]. pose proof (Rg x Ix). pose proof (Rg y Iy). rewrite (mget_mincr2 n) by (assumption || lia).
    destruct (Hadj x y Hxy) as [H1|[-> ->]].
    + specialize (A x y H1). destruct (_ && _), (_ && _); lia.
    + rewrite !Z.eqb_refl. cbn [andb]. specialize (N p v ltac:(lia) ltac:(lia)). destruct (_ && _); lia.
  - intros a b Ha Hb H. rewrite (mget_mincr2 n) in H by assumption.
    assert (C : 0 < mget m a b \/ (a = p /\ b = v) \/ (a = v /\ b = p)).
    { destruct (Z.eqb_spec a p), (Z.eqb_spec b v), (Z.eqb_spec a v), (Z.eqb_spec b p); cbn [andb] in H; auto; left; lia. }
    destruct C as [C|[[-> ->]|[-> ->]]]; [|split; assumption|split; assumption].
    destruct (U a b Ha Hb C). split; apply Hincl; assumption.
Qed.

(* extending the sequence by one value whose pair with the previous value has just been counted *)
Lemma cooc_inv_snoc n m seen v : cooc_inv n m seen -> 0 <= v < Z.of_nat n ->
  (forall p, (exists l', seen = l' ++ [p]) -> 1 <= mget m p v) ->
  cooc_inv n m (seen ++ [v]).
Proof.
  intros [S R N Y A U] Hv Hlast. constructor; auto.
  - apply Forall_app. split; [exact R|constructor; [exact Hv|constructor]].
  - intros x y Hxy. apply adjacent_snoc in Hxy. destruct Hxy as [H|[H ->]]; [apply A; exact H|apply Hlast; exact H].
  - intros a b Ha Hb H. destruct (U a b Ha Hb H). split; apply in_or_app; left; assumption.
Qed.

Definition pv_ok (pv : option Z) (seen : list Z) : Prop :=
  match pv with Some p => exists l', seen = l' ++ [p] | None => seen = [] end.

Lemma cooc_step n m seen pv v : cooc_inv n m seen -> pv_ok pv seen -> 0 <= v < Z.of_nat n ->
  cooc_inv n (match pv with Some p => mincr2 m p v | None => m end) (seen ++ [v]).
Proof.
  intros I Hpv Hv. destruct pv as [p|]; cbn [pv_ok] in Hpv.
  - destruct Hpv as [l' E]. apply (mincr2_inv n m seen).
    + exact I.
    + apply Forall_app. split; [exact (ci_range n m seen I)|constructor; [exact Hv|constructor]].
    + apply incl_appl, incl_refl.
    + rewrite E, !in_app_iff. cbn. tauto.
    + apply in_or_app. right. left. reflexivity.
    + intros x y Hxy. apply adjacent_snoc in Hxy. destruct Hxy as [H|[[l'' E'] ->]]; [left; exact H|right].
      rewrite E in E'. apply app_inj_tail in E'. destruct E' as [_ <-]. split; reflexivity.
  - apply cooc_inv_snoc; [exact I|exact Hv|]. subst seen. intros p [l' E]. destruct l'; discriminate.
Qed.

Lemma cooc_line_inv n : forall cur pl m pv seen m' pv',
  cooc_inv n m seen -> pv_ok pv seen ->
  (forall l x, pl = Some l -> In x l -> In x seen) ->
  Forall (fun v => 0 <= v < Z.of_nat n) cur ->
  cooc_line (Z.of_nat n) cur pl m pv = Ok (m', pv') ->
  cooc_inv n m' (seen ++ cur) /\ pv_ok pv' (seen ++ cur).
Proof.
  induction cur as [|v t IH]; intros pl m pv seen m' pv' I Hpv Hpl Hcur H; cbn [cooc_line] in H.
  - injection H as <- <-. rewrite app_nil_r. split; assumption.
  - apply Forall_cons_iff in Hcur. destruct Hcur as [Hv Ht].
    destruct (Z.ltb_spec (Z.of_nat n) v); [lia|]. destruct (Z.eqb_spec (Z.of_nat n) v); [lia|].
    pose proof (cooc_step n m seen pv v I Hpv Hv) as I1.
    set (m1 := match pv with Some p => mincr2 m p v | None => m end) in *.
    assert (Hpv1 : pv_ok (Some v) (seen ++ [v])) by (exists seen; reflexivity).
    replace (seen ++ v :: t) with ((seen ++ [v]) ++ t) by (rewrite <- app_assoc; reflexivity).
    destruct pl as [[|pval prest]|].
    + discriminate.
    + assert (Ipv : In pval seen) by (apply (Hpl (pval :: prest)); [reflexivity|left; reflexivity]).
      pose proof (ci_in_range n m seen pval I Ipv) as Hpr.
      destruct (Z.ltb_spec (Z.of_nat n) pval); [lia|]. destruct (Z.eqb_spec (Z.of_nat n) pval); [lia|].
      apply (IH (Some prest) (mincr2 m1 pval v) (Some v) (seen ++ [v]) m' pv'); auto.
      * apply (mincr2_inv n m1 (seen ++ [v])); auto using incl_refl; [exact (ci_range _ _ _ I1)|rewrite in_app_iff; cbn; tauto..].
      * intros l x [= <-] Hx. apply in_or_app. left. apply (Hpl (pval :: prest)); [reflexivity|right; exact Hx].
    + apply (IH None m1 (Some v) (seen ++ [v]) m' pv'); auto. intros l x [=].
Qed.

Lemma cooc_lines_inv n : forall lines pl m pv seen m',
  cooc_inv n m seen -> pv_ok pv seen ->
  (forall l x, pl = Some l -> In x l -> In x seen) ->
  Forall (Forall (fun v => 0 <= v < Z.of_nat n)) lines ->
  cooc_lines (Z.of_nat n) lines pl m pv = Ok m' ->
  cooc_inv n m' (seen ++ concat lines).
Proof.
  induction lines as [|l t IH]; intros pl m pv seen m' I Hpv Hpl Hl H; cbn [cooc_lines] in H.
  - injection H as <-. cbn [concat]. rewrite app_nil_r. exact I.
  - apply Forall_cons_iff in Hl. destruct Hl as [Hl Ht].
    destruct (cooc_line (Z.of_nat n) l pl m pv) as [[m1 pv1]|?|?] eqn:E; cbn [bind] in H; try discriminate.
    destruct (cooc_line_inv n l pl m pv seen m1 pv1 I Hpv Hpl Hl E) as [I1 Hpv1].
    cbn [concat]. rewrite app_assoc. apply (IH (Some l) m1 pv1 (seen ++ l) m'); auto.
    intros l0 x [= <-] Hx. apply in_or_app. right. exact Hx.
Qed.

Lemma mget_zero n a b : mget (repeat (repeat 0 n) n) a b = 0.
Proof.
  unfold mget, nthZ. destruct (nth_in_or_default (Z.to_nat a) (repeat (repeat 0 n) n) []) as [H| ->].
  - apply repeat_spec in H. rewrite H. apply nth_repeat.
  - destruct (Z.to_nat b); reflexivity.
Qed.

Theorem co_occurrence_inv (n : nat) (lines : list scanline) m :
  Forall (fun l => Forall (fun v => 0 <= v < Z.of_nat n) (l_data l)) lines ->
  co_occurrence_matrix n lines = Ok m -> cooc_inv n m (concat (map l_data lines)).
Proof.
  intros Hl H. unfold co_occurrence_matrix in H.
  apply (cooc_lines_inv n (map l_data lines) None (repeat (repeat 0 n) n) None [] m); auto.
  - constructor.
    + split; [apply repeat_length|]. apply Forall_forall. intros r Hr. apply repeat_spec in Hr. subst. apply repeat_length.
    + constructor.
    + intros a b _ _. rewrite mget_zero. lia.
    + intros a b _ _. rewrite !mget_zero. reflexivity.
    + intros x y (l1 & l2 & E). destruct l1; discriminate.
    + intros a b _ _ H0. rewrite mget_zero in H0. lia.
  - reflexivity.
  - intros l x [=].
  - apply Forall_map. exact Hl.
Qed.
