(* What both interlacing directions need, then interlace_image_sem.
   - bits: the model's bits_of_bytes is the specification's sbits_of_bytes; chunks and groups agree on whole pixels;
     bytes_of_bits packs bits so that unpacking gives them back, padded (table over the 256 octets).
   - scan lines that code pixels (line_coded) and coded_image_sem: an image whose data concatenates coded lines in the
     layout of its header, the pixels being those of img, means what img means and is well formed.
   - the interlaced layout as one block of lines per pass (pass_count, pass_tagged), assembled by spec_deinterlace.
   - the shape of the pass lines of an image (pass_lines_shape), and interlace_image_sem: the model's pixel routing is the
     specification's (InterlaceProofs), the specification reads every pixel back where it was (Adam7RoundTrip), and the
     packed pass lines are cut back into the same pixels. *)
From OxiVerif Require Import Base.Common Base.ListFacts Spec.Adam7 Spec.Sem Model.Types Model.ScanLines Model.Interlace Proofs.Adam7Geom
  Proofs.Bridge Proofs.InterlaceProofs Proofs.Adam7RoundTrip Proofs.ImageLift Proofs.LiftReductions Proofs.LiftColor Proofs.LiftLines
  Proofs.LiftBits.
Local Open Scope Z_scope.

Lemma flat_map_map {A B C} (g : A -> B) (f : B -> list C) l : flat_map f (map g l) = flat_map (fun x => f (g x)) l.
Proof. apply ListFacts.flat_map_map. Qed.

Lemma bits_of_bytes_spec l : bits_of_bytes l = sbits_of_bytes l.
Proof.
  apply flat_map_ext. intros b. unfold bits_of_byte, sbits_of_byte. cbn [map].
  rewrite !Z.testbit_odd, !Z.shiftr_div_pow2 by lia. reflexivity.
Qed.

(* chunks keeps a short last chunk, groups drops it: they agree on the complete groups, and there are as many of these as fit *)
Lemma chunks_groups {A} (n : nat) : (0 < n)%nat -> forall w (l : list A), (w * n <= length l)%nat ->
  firstn w (chunks n l) = firstn w (groups n l) /\ (w <= length (groups n l))%nat.
Proof.
  intros Hn. induction w as [|w IH]; intros l Hw; [split; [reflexivity|lia]|].
  rewrite chunks_step, groups_is_chunks_exact, chunks_exact_step by (try lia; intros ->; cbn in Hw; lia).
  destruct (IH (skipn n l)) as [E L]; [rewrite skipn_length; lia|]. cbn [firstn length]. rewrite E. split; [reflexivity|apply le_n_S, L].
Qed.

(* a scan line of n pixels of b bits holds n whole pixels *)
Lemma line_whole_pixels b n (tl : list Z) : 1 <= b -> 0 <= n -> length tl = Z.to_nat (line_bytes b n) ->
  firstn (Z.to_nat n) (chunks (Z.to_nat b) (sbits_of_bytes tl)) = line_pixels b n tl /\
  (Z.to_nat n <= length (groups (Z.to_nat b) (sbits_of_bytes tl)))%nat.
Proof.
  intros Hb Hn Hl. apply chunks_groups; [lia|]. rewrite sbits_of_bytes_length, Hl, <- Z2Nat.inj_mul by lia. unfold line_bytes, cdiv.
  pose proof (Z.mul_nonneg_nonneg n b Hn ltac:(lia)) as Hm. clear Hl. revert Hm. generalize (n * b). intros m Hm. Z.div_mod_to_equations. lia.
Qed.

Lemma line_pixels_bits_spec b n (tl : list Z) : 1 <= b -> 0 <= n -> length tl = Z.to_nat (line_bytes b n) ->
  line_pixels_bits (Z.to_nat b) (Z.to_nat n) tl = line_pixels b n tl.
Proof. intros Hb Hn Hl. unfold line_pixels_bits. rewrite bits_of_bytes_spec. apply line_whole_pixels; assumption. Qed.

Lemma line_pixels_shape b n (tl : list Z) : 1 <= b -> 0 <= n -> length tl = Z.to_nat (line_bytes b n) ->
  lenZ (line_pixels b n tl) = n /\ Forall (fun px => length px = Z.to_nat b) (line_pixels b n tl).
Proof.
  intros Hb Hn Hl. split; [|apply Forall_firstn, groups_lengths].
  pose proof (proj2 (line_whole_pixels b n tl Hb Hn Hl)). unfold line_pixels, lenZ. rewrite firstn_length. lia.
Qed.

Definition bools8 : list (list bool) := lists_of [true; false] 8.

Lemma pack8_table : forallb (fun c => (if list_eq_dec Bool.bool_dec (sbits_of_byte (val_of_bits c 0)) c then true else false)
                                      && (0 <=? val_of_bits c 0) && (val_of_bits c 0 <? 256)) bools8 = true.
Proof. vm_compute. reflexivity. Qed.

Lemma pack8_spec c : length c = 8%nat -> sbits_of_byte (val_of_bits c 0) = c /\ 0 <= val_of_bits c 0 < 256.
Proof.
  intros Hl. pose proof pack8_table as T. rewrite forallb_forall in T.
  assert (Hin : In c bools8) by (apply lists_of_complete; [exact Hl|intros [|] _; cbn; auto]). specialize (T c Hin).
  apply andb_true_iff in T. destruct T as [T T3]. apply andb_true_iff in T. destruct T as [T1 T2].
  split; [destruct (list_eq_dec _ _ c); [assumption|discriminate]|split; [apply Z.leb_le; exact T2|apply Z.ltb_lt; exact T3]].
Qed.

(* unpacking the packed bits gives the bits back, followed by the padding of the last byte *)
Lemma bytes_of_bits_fuel_spec : forall (fuel : nat) (l : list bool), (length l <= fuel * 8)%nat ->
  let out := bytes_of_bits_fuel fuel l in
  bytes_ok out /\ Z.of_nat (length out) = cdiv (Z.of_nat (length l)) 8 /\
  sbits_of_bytes out = l ++ repeat false (length out * 8 - length l).
Proof.
  induction fuel as [|f IH]; intros l Hl; cbn zeta.
  - destruct l; [|cbn in Hl; lia]. cbn. split; [constructor|split; reflexivity].
  - cbn [bytes_of_bits_fuel]. destruct l as [|b0 t] eqn:El; [cbn; split; [constructor|split; reflexivity]|]. rewrite <- El in *.
    assert (Hln : (0 < length l)%nat) by (rewrite El; cbn; lia).
    set (chunk := firstn 8 l ++ repeat false (8 - length (firstn 8 l))).
    destruct (pack8_spec chunk) as [Hbits Hr]; [unfold chunk; rewrite app_length, repeat_length, firstn_length; lia|].
    destruct (IH (skipn 8 l) ltac:(rewrite skipn_length; lia)) as (I1 & I2 & I3). cbn zeta in I1, I2, I3.
    set (rest := bytes_of_bits_fuel f (skipn 8 l)) in *. rewrite skipn_length in I2, I3. unfold cdiv in *.
    split; [apply Forall_cons; [exact Hr|exact I1]|]. split; [cbn [length]; Z.div_mod_to_equations; lia|].
    change (sbits_of_bytes (val_of_bits chunk 0 :: rest)) with (sbits_of_byte (val_of_bits chunk 0) ++ sbits_of_bytes rest).
    rewrite Hbits, I3. unfold chunk. cbn [length]. rewrite firstn_length.
    destruct (Nat.le_gt_cases 8 (length l)) as [Hge|Hlt].
    + replace (8 - Nat.min 8 (length l))%nat with 0%nat by lia. cbn [repeat]. rewrite app_nil_r.
      rewrite app_assoc, firstn_skipn. f_equal. f_equal. lia.
    + rewrite (firstn_all2 l), (skipn_all2 l) by lia. cbn [app]. rewrite <- app_assoc, <- repeat_app. f_equal. f_equal. lia.
Qed.

Lemma bytes_of_bits_spec (l : list bool) :
  bytes_ok (bytes_of_bits l) /\ Z.of_nat (length (bytes_of_bits l)) = cdiv (Z.of_nat (length l)) 8 /\
  sbits_of_bytes (bytes_of_bits l) = l ++ repeat false (length (bytes_of_bits l) * 8 - length l).
Proof. unfold bytes_of_bits. apply bytes_of_bits_fuel_spec. lia. Qed.

(* enc ln is a scan line of n pixels of b bits, and dec reads the pixels ln out of it *)
Definition line_coded {P} (enc : list P -> list Z) (dec : P -> list bool) (b n : Z) (ln : list P) : Prop :=
  length (enc ln) = Z.to_nat (line_bytes b n) /\ line_pixels b n (enc ln) = map dec ln /\ bytes_ok (enc ln).

Lemma packed_line_coded (b n : Z) (ln : list (list bool)) : 1 <= b -> 0 <= n ->
  length ln = Z.to_nat n -> Forall (fun px => length px = Z.to_nat b) ln ->
  line_coded (fun ln => bytes_of_bits (concat ln)) (fun px => px) b n ln.
Proof.
  intros Hb Hn Hln Hu. destruct (bytes_of_bits_spec (concat ln)) as (Hok & Hlen & Hbits).
  pose proof (concat_length_uniform _ ln Hu) as Hcl.
  split; [|split; [|exact Hok]].
  - rewrite Hcl, Hln, <- Z2Nat.inj_mul, Z2Nat.id in Hlen by lia. unfold line_bytes. lia.
  - unfold line_pixels. rewrite Hbits, groups_is_chunks_exact, (chunks_exact_app_multiple _ (concat ln) _ (length ln)), chunks_exact_concat by (auto; lia).
    rewrite <- Hln, firstn_app, Nat.sub_diag, firstn_O, app_nil_r, firstn_all, map_id. reflexivity.
Qed.

Lemma spec_image_pixels_cut w h b il data lines : 1 <= w -> 1 <= h -> 1 <= b ->
  cut_layout (spec_layout w h b il) data = Some lines ->
  spec_image_pixels w h b il data = assemble w h il (map (fun l => (fst l, line_pixels b (snd (fst l)) (snd l))) lines).
Proof.
  intros Hw Hh Hb Hcut. unfold spec_image_pixels. rewrite Hcut, !(proj2 (Z.leb_gt _ 0)) by lia. reflexivity.
Qed.

(* an image whose data concatenates lines that code pixels, laid out as its header says, means what img means
   if these pixels, assembled, are the pixels of img *)
Lemma coded_image_sem {P} (enc : list P -> list Z) (dec : P -> list bool) img il (plines : list (option Z * Z * list P)) :
  let w := width (hdr img) in let h := height (hdr img) in let b := bpp (hdr img) in
  wf img -> 1 <= w -> 1 <= h -> 1 <= b ->
  spec_layout w h b il = map (fun l => (fst l, line_bytes b (snd (fst l)))) plines ->
  Forall (fun l => line_coded enc dec b (snd (fst l)) (snd l)) plines ->
  option_map (map (map dec)) (assemble w h il plines) = spec_image_pixels w h b (interlaced (hdr img)) (data img) ->
  let img' := {| hdr := with_interlaced (hdr img) il; data := flat_map (fun l => enc (snd l)) plines |} in
  sem img' = sem img /\ wf img'.
Proof.
  intros w h b [_ Hwf] Hw Hh Hb HL Hc Hpx.
  assert (Hcut : cut_layout (spec_layout w h b il) (flat_map (fun l => enc (snd l)) plines) = Some (map (fun l => (fst l, enc (snd l))) plines)).
  { rewrite HL, flat_map_concat_map. apply (cut_layout_lines (fun l => (fst l, line_bytes b (snd (fst l))))).
    revert Hc. apply Forall_impl. intros l E. apply E. }
  assert (Hdec : map (fun l => (fst l, line_pixels b (snd (fst l)) (enc (snd l)))) plines = map (fun l => (fst l, map dec (snd l))) plines).
  { apply map_ext_Forall. revert Hc. apply Forall_impl. intros l (_ & E & _). rewrite E. reflexivity. }
  split; [|split; [apply Forall_flat_map; revert Hc; apply Forall_impl; intros l E; apply E|exact Hwf]].
  unfold sem, spec_sem. cbn [hdr data with_interlaced width height ctype depth interlaced].
  rewrite spec_channels_of. fold (bpp (hdr img)). fold w h b.
  rewrite <- Hpx, (spec_image_pixels_cut _ _ _ _ _ _ Hw Hh Hb Hcut), map_map. cbn [fst snd]. rewrite Hdec, assemble_map. reflexivity.
Qed.

(* the number of scan lines of a pass: none if it has no column (spec_pass_lines) *)
Definition pass_count (w h p : Z) : nat := if pw w p =? 0 then 0%nat else Z.to_nat (ph h p).

Lemma spec_layout_passes w h b :
  spec_layout w h b true = flat_map (fun p => repeat (Some p, pw w p, line_bytes b (pw w p)) (pass_count w h p)) passes7.
Proof.
  unfold spec_layout, spec_lines. rewrite map_flat_map. apply flat_map_ext. intros p. unfold spec_pass_lines, pass_count.
  destruct (pw w p =? 0); [reflexivity|]. rewrite map_repeat. reflexivity.
Qed.

(* one block of lines per pass, each line tagged with its pass and its number of pixels *)
Definition pass_tagged {T} (w : Z) (blk : Z -> list T) : list (option Z * Z * T) :=
  flat_map (fun p => map (fun x => (Some p, pw w p, x)) (blk p)) passes7.

Section Tagged.
Context {T : Type} (w : Z) (blk : Z -> list T).

Lemma pass_tagged_map {U} (f : Z -> T -> U) :
  map (fun l => (fst l, f (snd (fst l)) (snd l))) (pass_tagged w blk) = pass_tagged w (fun p => map (f (pw w p)) (blk p)).
Proof. unfold pass_tagged. rewrite map_flat_map. apply flat_map_ext. intros p. rewrite !map_map. reflexivity. Qed.

Lemma flat_map_tagged {U} (f : T -> list U) :
  flat_map (fun l => f (snd l)) (pass_tagged w blk) = flat_map (fun p => flat_map f (blk p)) passes7.
Proof.
  unfold pass_tagged. induction passes7 as [|p t IH]; cbn [flat_map]; [reflexivity|]. rewrite flat_map_app, flat_map_map, IH. reflexivity.
Qed.

Lemma Forall_tagged (Q : option Z * Z * T -> Prop) :
  Forall Q (pass_tagged w blk) <-> forall p, In p passes7 -> Forall (fun x => Q (Some p, pw w p, x)) (blk p).
Proof. unfold pass_tagged. rewrite Forall_flat_map, Forall_forall. split; intros H p Hp; apply Forall_map, H, Hp. Qed.

Lemma spec_layout_tagged h b : (forall p, In p passes7 -> length (blk p) = pass_count w h p) ->
  spec_layout w h b true = map (fun l => (fst l, line_bytes b (snd (fst l)))) (pass_tagged w blk).
Proof.
  intros H. rewrite spec_layout_passes. unfold pass_tagged. rewrite map_flat_map. apply flat_map_ext_in. intros p Hp.
  rewrite map_map, <- (H p Hp). cbn [fst snd]. symmetry. apply map_constant.
Qed.
End Tagged.

Lemma pass_rows_block {A} q p (n : Z) (lns : list (list A)) :
  pass_rows q (map (fun ln => (Some p, n, ln)) lns) = if p =? q then lns else [].
Proof.
  unfold pass_rows. induction lns as [|ln t IH]; cbn [map flat_map fst snd]; [destruct (p =? q); reflexivity|].
  rewrite IH. destruct (p =? q); reflexivity.
Qed.

Lemma assemble_tagged {A} w h (blk : Z -> list (list A)) : assemble w h true (pass_tagged w blk) = spec_deinterlace w h (map blk passes7).
Proof.
  unfold assemble. f_equal. apply map_ext_in. intros q Hq.
  assert (E : pass_rows q (pass_tagged w blk) = flat_map (fun p => if p =? q then blk p else []) passes7).
  { clear Hq. unfold pass_tagged, pass_rows. induction passes7 as [|p t IH]; cbn [flat_map]; [reflexivity|]. rewrite flat_map_app, IH. f_equal. apply pass_rows_block. }
  (* the seven pass numbers are distinct: for each q exactly one test p =? q succeeds *)
  rewrite E. unfold passes7 in *. cbn in Hq. destruct Hq as [<-|[<-|[<-|[<-|[<-|[<-|[<-|[]]]]]]]]; cbn; apply app_nil_r.
Qed.

Lemma sel_mod_length {A} d r (l : list A) : 0 <= r < d ->
  length (sel (fun x => x mod d =? r) 0 l) = Z.to_nat (if lenZ l <=? r then 0 else cdiv (lenZ l - r) d).
Proof.
  intros Hr. apply length_by_nth_error. intros k.
  rewrite (nth_error_sel_mod d r Hr l k 0), nth_error_Some, Z.sub_0_r, Z.mod_small by exact Hr. unfold lenZ.
  pose proof (cdiv_gt d (Z.of_nat (length l) - r) (Z.of_nat k) ltac:(lia)). pose proof (Z.mul_nonneg_nonneg (Z.of_nat k) d).
  destruct (Z.leb_spec (Z.of_nat (length l)) r); lia.
Qed.

Lemma sel_Forall {A} (Q : A -> Prop) f (l : list A) : Forall Q l -> forall i, Forall Q (sel f i l).
Proof. induction 1 as [|a t Ha _ IH]; intros i; cbn [sel]; [constructor|]. destruct (f i); [constructor; [exact Ha|]|]; apply IH. Qed.

Lemma pass_lines_shape {A} (Q : A -> Prop) p (rows : list (list A)) (w : Z) : In p passes7 ->
  Forall (fun r => lenZ r = w /\ Forall Q r) rows ->
  length (pass_lines p 0 rows) = pass_count w (lenZ rows) p /\
  Forall (fun ln => length ln = Z.to_nat (pw w p) /\ Forall Q ln) (pass_lines p 0 rows).
Proof.
  intros Hp Hrows. destruct (pass_consts p Hp) as (Hdx & Hx0 & Hdy & Hy0).
  assert (Hcol : Forall (fun r => length (sel (col_in p) 0 r) = Z.to_nat (pw w p) /\ Forall Q (sel (col_in p) 0 r)) rows).
  { revert Hrows. apply Forall_impl. intros r [<- HQ]. split; [exact (sel_mod_length (dx p) (x0 p) r Hx0)|apply sel_Forall, HQ]. }
  clear Hrows. split.
  - unfold pass_count. destruct (Z.eqb_spec (pw w p) 0) as [E0|Hne].
    + generalize 0 as y. induction Hcol as [|r t [Hr _] _ IH]; intros y; cbn [pass_lines]; [reflexivity|].
      destruct (sel (col_in p) 0 r); [|rewrite E0 in Hr; discriminate]. cbn [nonempty]. rewrite andb_false_r. apply IH.
    + rewrite pass_lines_sel, map_length; [exact (sel_mod_length (dy p) (y0 p) rows Hy0)|].
      pose proof (pw_nonneg w p).
      intros r Hr. rewrite Forall_forall in Hcol. destruct (Hcol r Hr) as [Hl _]. destruct (sel (col_in p) 0 r); [cbn in Hl; lia|reflexivity].
  - generalize 0 as y. induction Hcol as [|r t Hr _ IH]; intros y; cbn [pass_lines]; [constructor|].
    apply Forall_app. split; [|apply IH]. destruct (row_in p y && nonempty _); repeat constructor; apply Hr.
Qed.

Theorem interlace_image_sem img img' pic : wf img -> interlaced (hdr img) = false ->
  interlace_image img = Ok img' -> sem img = Some pic -> sem img' = Some pic /\ wf img'.
Proof.
  intros [Hok Hwf] Hil Hint Hsem.
  destruct (sem_some_cut _ _ Hsem) as (Hw & Hh & Hb & lines & Hcut).
  unfold interlace_image in Hint. rewrite (scan_lines_is_layout img lines Hw Hh Hb Hcut) in Hint. cbn [bind] in Hint.
  cbv zeta in Hint. injection Hint as <-. rewrite <- Hsem. rewrite Hil in Hcut.
  set (w := width (hdr img)) in *. set (h := height (hdr img)) in *. set (b := bpp (hdr img)) in *.
  (* the input: h lines of w pixels *)
  destruct (cut_layout_shape _ _ _ Hcut) as [Hs _]. apply Forall2_repeat_l in Hs. destruct Hs as [Hn Hs]. cbn [fst snd] in Hs.
  set (rows := map (fun l => line_pixels b w (snd l)) lines).
  assert (Hin : spec_image_pixels w h b false (data img) = Some rows).
  { rewrite (spec_image_pixels_cut _ _ _ _ _ _ Hw Hh Hb Hcut). unfold assemble. rewrite map_map. cbn [snd]. f_equal.
    apply map_ext_Forall. revert Hs. apply Forall_impl. intros l [-> _]. reflexivity. }
  assert (Hmodel : map (fun l => line_pixels_bits (Z.to_nat b) (Z.to_nat w) (l_data l)) (map to_scanline lines) = rows).
  { rewrite map_map. apply map_ext_Forall. revert Hs. apply Forall_impl. intros l [_ Hl]. apply line_pixels_bits_spec; [exact Hb|lia|exact Hl]. }
  assert (Hrows : Forall (fun r => lenZ r = w /\ Forall (fun px => length px = Z.to_nat b) r) rows).
  { apply Forall_map. revert Hs. apply Forall_impl. intros l [_ Hl].
    apply line_pixels_shape; [exact Hb|lia|exact Hl]. }
  rewrite Hmodel, model_interlace_is_spec.
  (* the output: the packed pass lines, pass by pass *)
  set (enc := fun ln : list (list bool) => bytes_of_bits (concat ln)).
  set (PL := fun p => pass_lines p 0 rows).
  assert (Hdata : flat_map (fun pass => flat_map enc pass) (spec_interlace rows) = flat_map (fun l => enc (snd l)) (pass_tagged w PL)).
  { unfold spec_interlace. rewrite flat_map_map. symmetry. apply flat_map_tagged. }
  rewrite Hdata.
  assert (Hh' : lenZ rows = h) by (unfold lenZ, rows; rewrite map_length; lia).
  assert (Hcoded : Forall (fun l => line_coded enc (fun px => px) b (snd (fst l)) (snd l)) (pass_tagged w PL)).
  { apply Forall_tagged. intros p Hp. destruct (pass_lines_shape _ p rows w Hp Hrows) as [_ S2]. revert S2. apply Forall_impl.
    intros ln [Hl Hpx]. cbn [fst snd]. apply packed_line_coded; [exact Hb|apply pw_nonneg|exact Hl|exact Hpx]. }
  apply (coded_image_sem enc (fun px => px) img true (pass_tagged w PL) (conj Hok Hwf) Hw Hh Hb); [|exact Hcoded|].
  { apply spec_layout_tagged. intros p Hp. fold h. rewrite <- Hh'. apply (pass_lines_shape _ p rows w Hp Hrows). }
  fold w h b. rewrite Hil, Hin, assemble_tagged. change (map PL passes7) with (spec_interlace rows).
  rewrite spec_deinterlace_interlace; [cbn [option_map]; rewrite (map_ext _ _ (@map_id _)), map_id; reflexivity|lia|lia|unfold lenZ in Hh'; lia|].
  intros r Hr. rewrite Forall_forall in Hrows. destruct (Hrows r Hr) as [Hl _]. unfold lenZ in Hl. lia.
Qed.
