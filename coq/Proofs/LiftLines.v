(* Scan-line-wise transformations, any pixel size (sub-byte included): if every scan line is turned into a line of
   the right length whose pixel colours refine the former ones (`refines`), the image keeps its meaning - for every
   size, interlaced or not (gsem_linewise; sem_linewise for an image). And the bridge to the model: its scan-line
   iterator yields the lines of the specification's layout (scan_lines_is_layout, on C18's theorems). *)
From OxiVerif Require Import Base.Common Base.ListFacts Spec.Adam7 Spec.Sem Model.Types Model.ScanLines Proofs.Bridge Proofs.ScanProofs
  Proofs.ImageLift Proofs.LiftReductions Proofs.LiftColor.
Local Open Scope Z_scope.

Lemma gsem_lines w h b il pc data :
  gsem w h b il pc data =
  if (w <=? 0) || (h <=? 0) || (b <=? 0) then None else
  match cut_layout (spec_layout w h b il) data with
  | None => None
  | Some lines => finish w h (assemble w h il (map (fun l => (fst l, map pc (line_pixels b (snd (fst l)) (snd l)))) lines))
  end.
Proof.
  unfold gsem, spec_image_pixels. destruct ((w <=? 0) || (h <=? 0) || (b <=? 0)); [reflexivity|].
  destruct (cut_layout (spec_layout w h b il) data) as [lines|]; [|reflexivity].
  rewrite <- (assemble_map pc). rewrite map_map. reflexivity.
Qed.

Definition refines (c c' : option rgba16) : Prop := c <> None -> c' = c.

(* wherever the first table has a colour, the second has the same *)
Lemma refine_finish w h (orows : option (list (list (option rgba16 * option rgba16)))) pic :
  (forall rows, orows = Some rows -> Forall (Forall (fun z => refines (fst z) (snd z))) rows) ->
  finish w h (option_map (map (map fst)) orows) = Some pic -> finish w h (option_map (map (map snd)) orows) = Some pic.
Proof.
  destruct orows as [rows|]; cbn [option_map]; [|auto]. intros HR Hfin. specialize (HR rows eq_refl).
  pose proof (finish_some_all _ _ _ _ Hfin) as Hall. rewrite Forall_map in Hall.
  rewrite <- Hfin. do 2 f_equal. apply map_ext_Forall. eapply Forall_impl; [|exact (Forall_and HR Hall)].
  intros row [Hr Ha]. rewrite Forall_map in Ha. apply map_ext_Forall. eapply Forall_impl; [|exact (Forall_and Hr Ha)].
  intros z [Hz Hn]. exact (Hz Hn).
Qed.

(* lines that are related pixel by pixel are the two projections of one list of lines of pairs *)
Lemma zip_lines {X A B} (R : A -> B -> Prop) (hd : X -> option Z * Z) (c : X -> list A) (c' : X -> list B) (ls : list X) :
  Forall (fun l => Forall2 R (c l) (c' l)) ls ->
  exists zl, map (fun l => (hd l, c l)) ls = map (fun l => (fst l, map fst (snd l))) zl /\
             map (fun l => (hd l, c' l)) ls = map (fun l => (fst l, map snd (snd l))) zl /\
             Forall (fun l => Forall (fun z => R (fst z) (snd z)) (snd l)) zl.
Proof.
  induction 1 as [|l t Hl _ (zl & E1 & E2 & HZ)].
  - exists []. repeat split. constructor.
  - destruct (Forall2_combine R _ _ Hl) as (Ha & Hb & Hc).
    exists ((hd l, combine (c l) (c' l)) :: zl). cbn [map fst snd]. rewrite Ha, Hb, E1, E2. repeat split. constructor; assumption.
Qed.

Lemma refine_lines {X} w h il (hd : X -> option Z * Z) (c c' : X -> list (option rgba16)) (ls : list X) pic :
  finish w h (assemble w h il (map (fun l => (hd l, c l)) ls)) = Some pic ->
  Forall (fun l => Forall2 refines (c l) (c' l)) ls ->
  finish w h (assemble w h il (map (fun l => (hd l, c' l)) ls)) = Some pic.
Proof.
  intros Hfin HF. revert Hfin. destruct (zip_lines refines hd c c' ls HF) as (zl & -> & -> & HZ).
  rewrite !assemble_map. apply refine_finish. intros rows Ea. exact (assemble_Forall _ _ _ _ _ _ Ea HZ).
Qed.

(* the cut lines carry the (pass, pixels) pairs of the layout, whatever the pixel size *)
Lemma cut_spec_layout w h b il data lines : cut_layout (spec_layout w h b il) data = Some lines ->
  map fst lines = pix_layout w h il /\ Forall (fun l => length (snd l) = Z.to_nat (line_bytes b (snd (fst l)))) lines.
Proof.
  intros H. apply cut_layout_shape in H. destruct H as [H _]. rewrite spec_layout_pix in H. revert lines H.
  induction (pix_layout w h il) as [|[p n] t IH]; intros lines H; inversion H as [|? l ? ls [Hf Hl] H']; subst; [auto|].
  destruct (IH _ H') as [I1 I2]. cbn [map fst snd] in *. rewrite I1, Hf. split; [reflexivity|]. constructor; [rewrite Hf; exact Hl|exact I2].
Qed.

Lemma cut_lines_lengths w h b il data lines : 1 <= w ->
  cut_layout (spec_layout w h b il) data = Some lines ->
  forall l, In l lines -> length (snd l) = Z.to_nat (line_bytes b (snd (fst l))) /\ 0 <= snd (fst l).
Proof.
  intros Hw Hcut l Hl. destruct (cut_spec_layout _ _ _ _ _ _ Hcut) as [Hf Hlen].
  pose proof (pix_layout_nonneg w h il Hw) as P. rewrite <- Hf, Forall_map in P.
  rewrite Forall_forall in Hlen, P. auto.
Qed.

Theorem gsem_linewise w h il (b b' : Z) pc pc' (T : option Z * Z * list Z -> list Z) data lines pic :
  0 < b' ->
  cut_layout (spec_layout w h b il) data = Some lines ->
  (forall l, In l lines -> length (snd l) = Z.to_nat (line_bytes b (snd (fst l))) ->
     length (T l) = Z.to_nat (line_bytes b' (snd (fst l))) /\
     Forall2 refines (map pc (line_pixels b (snd (fst l)) (snd l))) (map pc' (line_pixels b' (snd (fst l)) (T l)))) ->
  gsem w h b il pc data = Some pic ->
  gsem w h b' il pc' (concat (map T lines)) = Some pic.
Proof.
  intros Hb' Hcut HT Hsem. rewrite gsem_lines in *.
  destruct ((w <=? 0) || (h <=? 0)); [discriminate|]. cbn [orb] in *.
  destruct (b <=? 0); [discriminate|]. destruct (Z.leb_spec b' 0) as [|_]; [lia|].
  rewrite Hcut in Hsem. destruct (cut_spec_layout _ _ _ _ _ _ Hcut) as [Hf Hlen]. rewrite Forall_forall in Hlen.
  rewrite spec_layout_pix, <- Hf, map_map, (map_ext _ (fun l => (fst l, line_bytes b' (snd (fst l))))) by (intros [[p n] d]; reflexivity).
  rewrite (cut_layout_lines _ T) by (apply Forall_forall; intros l Hl; apply HT; auto).
  rewrite map_map. apply (refine_lines w h il fst _ _ _ _ Hsem).
  apply Forall_forall. intros l Hl. apply HT; auto.
Qed.

Definition to_scanline (l : option Z * Z * list Z) : scanline :=
  {| l_filter := 0; l_data := snd l; l_pass := fst (fst l); l_npix := snd (fst l) |}.

Lemma cut_lines_layout (L : list (option Z * Z * Z)) : forall data lines,
  cut_layout L data = Some lines ->
  cut_lines false (map (fun l => (snd l + 0, fst (fst l), snd (fst l))) L) data = Ok (map to_scanline lines).
Proof.
  induction L as [|[[p n] nb] t IH]; intros data lines H; cbn [cut_layout] in H; cbn [map cut_lines andb].
  - destruct data; [injection H as <-; reflexivity|discriminate].
  - cbn [fst snd]. rewrite Z.add_0_r.
    destruct (length data <? Z.to_nat nb)%nat; [discriminate|].
    destruct (cut_layout t (skipn (Z.to_nat nb) data)) as [r|] eqn:E; [|discriminate]. injection H as <-.
    rewrite (IH _ _ E). reflexivity.
Qed.

Lemma spec_layout_nonneg w h b il : 1 <= w -> 0 <= b -> Forall (fun lay => 0 <= snd lay) (spec_layout w h b il).
Proof.
  intros Hw Hb. rewrite spec_layout_pix. apply Forall_map. eapply Forall_impl; [|exact (pix_layout_nonneg w h il Hw)].
  intros pn Hpn. cbn [snd] in *. unfold line_bytes, cdiv. apply Z.div_pos; nia.
Qed.

Theorem scan_lines_is_layout (img : image) lines :
  1 <= width (hdr img) -> 1 <= height (hdr img) -> 1 <= bpp (hdr img) ->
  cut_layout (spec_layout (width (hdr img)) (height (hdr img)) (bpp (hdr img)) (interlaced (hdr img))) (data img) = Some lines ->
  scan_lines img false = Ok (map to_scanline lines).
Proof.
  intros Hw Hh Hb Hcut. unfold scan_lines.
  replace (lenZ (data img)) with (spec_raw_size (width (hdr img)) (height (hdr img)) (bpp (hdr img)) (interlaced (hdr img)) false).
  - rewrite scan_ranges_spec by assumption. cbn [bind]. apply cut_lines_layout. exact Hcut.
  - unfold lenZ, spec_raw_size. rewrite (cut_layout_length _ _ _ Hcut). clear Hcut.
    induction (spec_layout_nonneg _ (height (hdr img)) (bpp (hdr img)) (interlaced (hdr img)) Hw ltac:(lia)) as [|lay t Hlay _ IH];
      cbn [map list_sum sumZ fold_right]; [reflexivity|].
    fold (list_sum (map (fun l => Z.to_nat (snd l)) t)). unfold sumZ in IH. lia.
Qed.

Lemma cut_lines_Forall {P : Z -> Prop} L data lines : Forall P data -> cut_layout L data = Some lines -> Forall (fun l => Forall P (snd l)) lines.
Proof.
  intros HP Hcut. destruct (cut_layout_shape _ _ _ Hcut) as [_ Hd]. rewrite Hd, Forall_concat, Forall_map in HP. exact HP.
Qed.

Lemma sem_some_cut img pic : sem img = Some pic ->
  1 <= width (hdr img) /\ 1 <= height (hdr img) /\ 1 <= bpp (hdr img) /\
  exists lines, cut_layout (spec_layout (width (hdr img)) (height (hdr img)) (bpp (hdr img)) (interlaced (hdr img))) (data img) = Some lines.
Proof.
  unfold sem, spec_sem, spec_image_pixels, bpp. rewrite spec_channels_of.
  destruct (negb (depth_legal _ _)); [discriminate|].
  destruct (Z.leb_spec (width (hdr img)) 0); [discriminate|]. destruct (Z.leb_spec (height (hdr img)) 0); [discriminate|].
  destruct (Z.leb_spec (depth (hdr img) * channels_per_pixel (ctype (hdr img))) 0); [discriminate|]. cbn [orb].
  destruct (cut_layout _ (data img)) as [lines|]; [|discriminate]. intros _. repeat split; try lia. eauto.
Qed.

(* P: whatever is known of all bytes of the image and needed of the bytes of each line *)
Theorem sem_linewise (P : Z -> Prop) img c' d' (T : option Z * Z * list Z -> list Z) lines pic :
  Forall P (data img) -> sem img = Some pic ->
  cut_layout (spec_layout (width (hdr img)) (height (hdr img)) (bpp (hdr img)) (interlaced (hdr img))) (data img) = Some lines ->
  depth_legal (spec_color_of c') d' = true -> 0 < d' * channels_per_pixel c' -> wf_ctype c' d' ->
  (forall l, In l lines -> 0 <= snd (fst l) -> length (snd l) = Z.to_nat (line_bytes (bpp (hdr img)) (snd (fst l))) -> Forall P (snd l) ->
     length (T l) = Z.to_nat (line_bytes (d' * channels_per_pixel c') (snd (fst l))) /\ bytes_ok (T l) /\
     Forall2 refines (map (pixel_color (spec_color_of (ctype (hdr img))) (depth (hdr img))) (line_pixels (bpp (hdr img)) (snd (fst l)) (snd l)))
                     (map (pixel_color (spec_color_of c') d') (line_pixels (d' * channels_per_pixel c') (snd (fst l)) (T l)))) ->
  sem {| hdr := with_depth (with_ctype (hdr img) c') d'; data := concat (map T lines) |} = Some pic /\
  wf {| hdr := with_depth (with_ctype (hdr img) c') d'; data := concat (map T lines) |}.
Proof.
  intros HP Hsem Hcut Hlegal Hb' Hwf' HT. destruct (sem_some_cut _ _ Hsem) as (Hw & _).
  assert (HT' : forall l, In l lines -> length (snd l) = Z.to_nat (line_bytes (bpp (hdr img)) (snd (fst l))) -> _)
    by (intros l Hl Hlen; apply (HT l Hl); [apply (cut_lines_lengths _ _ _ _ _ _ Hw Hcut l Hl)|exact Hlen|];
        pose proof (cut_lines_Forall _ _ _ HP Hcut) as HPl; rewrite Forall_forall in HPl; exact (HPl l Hl)).
  split.
  - unfold sem in *. cbn [hdr data width height interlaced depth ctype with_ctype with_depth]. rewrite spec_sem_gsem in *.
    rewrite Hlegal. cbn [negb]. destruct (negb (depth_legal _ _)); [discriminate|]. rewrite spec_channels_of in *.
    fold (bpp (hdr img)) in Hsem. eapply gsem_linewise; [exact Hb'|exact Hcut| |exact Hsem].
    intros l Hl Hlen. split; apply (HT' l Hl Hlen).
  - split; cbn [data hdr ctype depth with_ctype with_depth]; [|exact Hwf']. unfold bytes_ok. rewrite Forall_concat, Forall_map.
    apply Forall_forall. intros l Hl. apply (HT' l Hl). apply (cut_lines_lengths _ _ _ _ _ _ Hw Hcut l Hl).
Qed.

Lemma refines_map {X Y K} (k : Y -> K) (h : X -> K) (f : X -> option rgba16) (f' : Y -> option rgba16) : forall xs ys,
  map k ys = map h xs -> (forall x y, In x xs -> In y ys -> k y = h x -> refines (f x) (f' y)) ->
  Forall2 refines (map f xs) (map f' ys).
Proof.
  induction xs as [|x xs IH]; intros [|y ys] E H; try discriminate; cbn [map]; constructor; injection E as E1 E2.
  - apply H; [left; reflexivity|left; reflexivity|exact E1].
  - apply IH; [exact E2|]. intros x0 y0 Hx Hy. apply H; right; assumption.
Qed.
