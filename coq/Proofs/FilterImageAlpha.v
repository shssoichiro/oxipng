(* filter_line with the alpha optimisation switched on, as the theorem about the rows of an image wants it: the line it
   filters differs from the given one only in the colour bytes of fully transparent pixels (C03). *)
From OxiVerif Require Import Base.Common Model.Filters Proofs.FilterProofs Proofs.FilterImage Proofs.AlphaLine.

Section FA.
Variable bpp ab : nat.
Hypothesis Hab : (1 <= ab)%nat.
Hypothesis Hab2 : (ab <= bpp)%nat.
Let cb := (bpp - ab)%nat.
Let Hcb : (cb <= bpp)%nat. Proof. unfold cb. lia. Qed.
Let Hbpp : (0 < bpp)%nat. Proof. lia. Qed.

Definition lrel := line_rel bpp cb.
Definition mult_line (d : list Z) : Prop := exists k, (1 <= k)%nat /\ length d = (k * bpp)%nat.

Lemma lrel_mult a b : lrel a b -> mult_line a -> mult_line b.
Proof. intros (L & _) (k & Hk & E). exists k. split; [assumption|congruence]. Qed.

Lemma rewrites_alpha : rewrites bpp ab (fun n => exists k, (1 <= k)%nat /\ n = (k * bpp)%nat) lrel.
Proof.
  split.
  - apply line_rel_refl.
  - apply line_rel_trans.
  - intros d d' _ (L & B & _). auto.
  - intros f d prev Hf Hd (k & Hk & Ek) Hl Hp.
    pose proof (optimize_alpha_line_rel bpp cb Hcb Hbpp f d prev k Ek Hl Hd Hp Hk) as Rl.
    exists (optimize_alpha_line f bpp d prev cb). split; [exact Rl|].
    pose proof (filter_line_is_spec f bpp d prev ab Hf) as E. destruct ab eqn:Eab; [lia|]. apply E; [nia|exact Hl|apply Rl].
Qed.
End FA.
