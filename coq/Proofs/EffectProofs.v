(* Header effects of every transformation (C08): what each one can and cannot change. The transformations fall into five
   classes, each governed by one option (ctype_change and channels_change both by color_type_reduction); a property of
   headers that survives the classes still enabled holds of every candidate. *)
From OxiVerif Require Import Base.Common Model.Types Model.Options Model.Interlace Model.BitDepth Model.Color Model.Palette Model.Reductions
  Proofs.ReductionInv.

Definition same_geom (a b : ihdr) : Prop :=
  width a = width b /\ height a = height b /\ interlaced a = interlaced b.

Definition grayness (i : image) : bool := is_gray (ctype (hdr i)).

(* the classes: header a before, b after *)
(* bit depth reductions: the depth changes, a transparent shade or colour is rescaled with it *)
Definition depth_change (a b : ihdr) : Prop :=
  same_geom b a /\ png_header_code (ctype b) = png_header_code (ctype a) /\ is_gray (ctype b) = is_gray (ctype a) /\
  forall p, ctype a = Indexed p -> ctype b = Indexed p.

(* palette reductions: only the entries of the palette change *)
Definition palette_change (a b : ihdr) : Prop :=
  same_geom b a /\ depth b = depth a /\ png_header_code (ctype b) = png_header_code (ctype a) /\
  is_gray (ctype b) = is_gray (ctype a).

(* colour type reductions of the current image start from a type that is not indexed; without the
   grayscale switch [ag] they stay on their side of grayscale / colour *)
Definition ctype_change (ag : bool) (a b : ihdr) : Prop :=
  same_geom b a /\ depth b = depth a /\ is_indexed (ctype a) = false /\ (ag = false -> is_gray (ctype b) = is_gray (ctype a)).

(* indexed_to_channels, whose result is only ever handed to the evaluator: it ends in such a type *)
Definition channels_change (ag : bool) (a b : ihdr) : Prop :=
  same_geom b a /\ depth b = depth a /\ is_indexed (ctype b) = false /\ (ag = false -> is_gray (ctype b) = is_gray (ctype a)).

(* the first block: to the requested interlacing [m], if any *)
Definition interlace_change (m : option bool) (a b : ihdr) : Prop :=
  width b = width a /\ height b = height a /\ depth b = depth a /\ ctype b = ctype a /\
  interlaced b = match m with Some x => x | None => interlaced a end.

Lemma palette_change_depth a b : palette_change a b -> depth b = depth a.
Proof. intros (_ & D & _). exact D. Qed.
Lemma ctype_change_depth ag a b : ctype_change ag a b -> depth b = depth a.
Proof. intros (_ & D & _). exact D. Qed.
Lemma channels_change_depth ag a b : channels_change ag a b -> depth b = depth a.
Proof. intros (_ & D & _). exact D. Qed.

Lemma ctype_then_palette ag a b c : ctype_change ag a b -> palette_change b c -> ctype_change ag a c.
Proof.
  intros ((W & H & I) & D & N & G) ((W' & H' & I') & D' & _ & G'). unfold ctype_change, same_geom.
  repeat split; try congruence. intros Hg. rewrite G'. auto.
Qed.

Lemma eff_clean i r : cleaned_alpha_channel i = Some r -> hdr r = hdr i.
Proof. unfold cleaned_alpha_channel. destruct (negb _); intros [= <-]. reflexivity. Qed.

Lemma depth_change_16 h f : depth_change h (with_depth (with_ctype h (color_type_16_to_8 (ctype h) f)) 8).
Proof.
  unfold depth_change, same_geom. cbn. destruct (ctype h) as [[k|]|[[[r g] b]|]|p| |]; cbn; repeat split; auto; discriminate.
Qed.

Lemma eff_16 i fs r : reduced_bit_depth_16_to_8 i fs = Some r ->
  depth (hdr i) = 16 /\ depth (hdr r) = 8 /\ depth_change (hdr i) (hdr r).
Proof.
  unfold reduced_bit_depth_16_to_8, scaled_bit_depth_16_to_8.
  destruct (Z.eqb_spec (depth (hdr i)) 16) as [Ed|]; [|discriminate]. cbn [negb].
  destruct fs; [|destruct (existsb _ _)]; intros [= <-]; cbn [hdr]; auto using depth_change_16.
Qed.

Lemma eff_rgb_gray i r : reduced_rgb_to_grayscale i = Some r ->
  ctype_change true (hdr i) (hdr r) /\ is_rgb (ctype (hdr i)) = true /\ grayness r = true.
Proof.
  unfold reduced_rgb_to_grayscale, ctype_change, same_geom, grayness.
  destruct (is_rgb (ctype (hdr i))) eqn:Er; [|discriminate]. cbn [negb].
  destruct (negb _); intros [= <-]. cbn. repeat split; auto; try discriminate.
  all: destruct (ctype (hdr i)); try discriminate; reflexivity.
Qed.

Lemma eff_expand i r : expanded_bit_depth_to_8 i = Ok (Some r) ->
  depth (hdr i) < 8 /\ depth (hdr r) = 8 /\ depth_change (hdr i) (hdr r).
Proof.
  unfold expanded_bit_depth_to_8, depth_change, same_geom.
  destruct (Z.leb_spec 8 (depth (hdr i))) as [|Ed]; [discriminate|]. intros H.
  apply bind_Ok in H as (lines & _ & [= <-]). cbn.
  repeat split; auto; destruct (ctype (hdr i)) as [[k|]|?|?| |]; cbn; auto; discriminate.
Qed.

Lemma eff_reduced_palette i oa r : reduced_palette i oa = Some r -> palette_change (hdr i) (hdr r).
Proof.
  unfold reduced_palette, palette_change, same_geom.
  destruct (negb (depth (hdr i) =? 8)); [discriminate|].
  destruct (ctype (hdr i)); try discriminate.
  destruct (condense _ _ _ _ _ _ _) as [[set bm] dc].
  destruct dc; [|destruct (negb _)]; intros [= <-]; cbn; repeat split; auto.
Qed.

Lemma eff_sorted_palette i r : sorted_palette i = Ok (Some r) -> palette_change (hdr i) (hdr r).
Proof.
  unfold sorted_palette, palette_change, same_geom.
  destruct (negb (depth (hdr i) =? 8)); [discriminate|].
  destruct (ctype (hdr i)); try discriminate.
  destruct (length pal <=? 1)%nat; [discriminate|]. intros H.
  apply bind_Ok in H as (lines & _ & H). apply bind_Ok in H as (kf & _ & H). revert H.
  destruct (match kf with Some _ => _ | None => _ end) as [first rest].
  destruct (is_identity _); intros [= <-]. cbn. repeat split; auto.
Qed.

Lemma eff_reorder i rm r : apply_palette_reorder i rm = Ok (Some r) -> palette_change (hdr i) (hdr r).
Proof.
  unfold apply_palette_reorder, palette_change, same_geom.
  destruct (ctype (hdr i)); try discriminate.
  destruct (is_identity rm); [discriminate|]. destruct (existsb _ _); intros [= <-]. cbn. repeat split; auto.
Qed.

Lemma eff_battiato i r : sorted_palette_battiato i = Ok (Some r) -> palette_change (hdr i) (hdr r).
Proof.
  unfold sorted_palette_battiato. destruct (palette_for_sort i); [|discriminate]. intros H.
  do 4 (apply bind_Ok in H as (? & _ & H)). exact (eff_reorder _ _ _ H).
Qed.

Lemma eff_mzeng i r : sorted_palette_mzeng i = Ok (Some r) -> palette_change (hdr i) (hdr r).
Proof.
  unfold sorted_palette_mzeng. destruct (palette_for_sort i); [|discriminate]. intros H.
  do 4 (apply bind_Ok in H as (? & _ & H)). exact (eff_reorder _ _ _ H).
Qed.

Lemma eff_alpha i oa r ag : reduced_alpha_channel i oa = Some r ->
  ctype_change ag (hdr i) (hdr r) /\ has_alpha (ctype (hdr i)) = true.
Proof.
  unfold reduced_alpha_channel, ctype_change, same_geom.
  destruct (has_alpha (ctype (hdr i))) eqn:Ea; [|discriminate]. cbn [negb].
  destruct (alpha_scan _ _ _ _ _); [discriminate|].
  destruct (if _ : bool then _ else _) as [trns|]; intros [= <-]; cbn; repeat split; auto.
  all: destruct (ctype (hdr i)); try discriminate; reflexivity.
Qed.

Lemma eff_to_channels i ag oa r : indexed_to_channels i ag oa = Some r ->
  channels_change ag (hdr i) (hdr r) /\ exists p, ctype (hdr i) = Indexed p.
Proof.
  unfold indexed_to_channels, channels_change, same_geom.
  destruct (negb (depth (hdr i) =? 8)); [discriminate|].
  destruct (ctype (hdr i)); try discriminate.
  destruct (INDEXED_MAX_DIFF <? _); intros [= <-]. cbn. repeat split; try reflexivity.
  - destruct (if ag then _ else _), (existsb _ _); reflexivity.
  - intros ->. destruct (existsb _ _); reflexivity.
  - eexists. reflexivity.
Qed.

Lemma eff_to_indexed i ag r : reduced_to_indexed i ag = Some r ->
  ctype_change ag (hdr i) (hdr r) /\ exists p, ctype (hdr r) = Indexed p.
Proof.
  unfold reduced_to_indexed, ctype_change, same_geom.
  destruct (negb (depth (hdr i) =? 8)); [discriminate|].
  destruct (is_indexed (ctype (hdr i))) eqn:Ei; [discriminate|].
  destruct (negb ag && is_gray (ctype (hdr i))) eqn:Eg; [discriminate|].
  destruct (build_palette _ _ _ _) as [[pmap raw]|]; intros [= <-]. cbn. repeat split; try reflexivity.
  - intros ->. symmetry. exact Eg.
  - eexists. reflexivity.
Qed.

Lemma eff_8_or_less i r : reduced_bit_depth_8_or_less i = Ok (Some r) -> depth_change (hdr i) (hdr r).
Proof.
  unfold reduced_bit_depth_8_or_less, depth_change, same_geom.
  destruct (negb (depth (hdr i) =? 8) || negb (channels i =? 1)); [discriminate|]. cbv zeta.
  destruct (match ctype (hdr i) with Indexed _ => _ | _ => _ end) as [bits|]; [|discriminate]. intros H.
  apply bind_Ok in H as (lines & _ & [= <-]). cbn.
  destruct (ctype (hdr i)) as [[k|]|?|?| |]; cbn; repeat split; auto; discriminate.
Qed.

(* whether or not there was anything to change, the image to go on with has the interlacing asked for *)
Lemma eff_change_interlacing i il r : change_interlacing i il = Ok r ->
  interlace_change (Some il) (hdr i) (hdr (match r with Some x => x | None => i end)).
Proof.
  unfold change_interlacing, interlace_change. destruct (Bool.eqb il (interlaced (hdr i))) eqn:Eb.
  - intros [= <-]. repeat split. symmetry. exact (eqb_prop _ _ Eb).
  - intros H. destruct il; [unfold interlace_image in H|unfold deinterlace_image in H];
      apply bind_Ok in H as (x & E & [= <-]); apply bind_Ok in E as (y & _ & [= <-]); cbn; auto.
Qed.

Lemma eff_interlace i il r : change_interlacing i il = Ok (Some r) ->
  width (hdr r) = width (hdr i) /\ height (hdr r) = height (hdr i) /\ interlaced (hdr r) = il
  /\ depth (hdr r) = depth (hdr i) /\ ctype (hdr r) = ctype (hdr i).
Proof. intros H. destruct (eff_change_interlacing _ _ _ H) as (W & Hh & D & C & I). auto. Qed.

Lemma eff_s_interlace o i st : s_interlace o i = Ok st -> interlace_change (interlace o) (hdr i) (hdr (r_png st)).
Proof.
  unfold s_interlace. intros H. apply bind_Ok in H as (png & E & [= <-]). cbn [r_png].
  destruct (interlace o) as [il|]; [|injection E as <-; unfold interlace_change; auto].
  apply bind_Ok in E as (r & Ec & [= <-]). exact (eff_change_interlacing _ _ _ Ec).
Qed.

Definition all_candidates (P : image -> Prop) (baseline : image) (evs : list rd_event) : Prop :=
  P baseline /\ Forall (ev_ok P) evs.

Section Pipe.
Variable e : env.
Variable o : options.
Variable img : image.

Section Header.
(* P: headers on the main line; Q: headers of what is handed to the evaluator *)
Variable P Q : ihdr -> Prop.
Hypothesis PQ : forall h, P h -> Q h.
Hypothesis Hbd : bit_depth_reduction o = true -> forall a b, depth_change a b -> P a -> P b.
Hypothesis Hpl : palette_reduction o = true -> forall a b, palette_change a b -> P a -> P b.
Hypothesis Hct : color_type_reduction o = true -> forall a b, ctype_change (grayscale_reduction o) a b -> P a -> P b.
Hypothesis Hch : color_type_reduction o = true -> forall a b, channels_change (grayscale_reduction o) a b -> P a -> Q b.
Hypothesis Hst : forall h, interlace_change (interlace o) (hdr img) h -> P h.

Theorem header_inv baseline evs : perform_reductions e o img = Ok (baseline, evs) ->
  P (hdr baseline) /\ Forall (ev_ok (fun i => Q (hdr i))) evs.
Proof.
  apply (perform_reductions_inv (fun i => P (hdr i)) (fun i => Q (hdr i)) (fun i => PQ (hdr i)) e o).
  - intros _ i r H. rewrite (eff_clean _ _ H). auto.
  - intros Hf i r H. destruct (eff_16 _ _ _ H) as (_ & _ & C). exact (Hbd Hf _ _ C).
  - intros Hf Hg i r H. destruct (eff_rgb_gray _ _ H) as (C & _). rewrite <- Hg in C. exact (Hct Hf _ _ C).
  - intros Hf i r H. destruct (eff_expand _ _ H) as (_ & _ & C). exact (Hbd Hf _ _ C).
  - intros Hf i r H. exact (Hpl Hf _ _ (eff_reduced_palette _ _ _ H)).
  - intros Hf i r H. exact (Hpl Hf _ _ (eff_sorted_palette _ _ H)).
  - intros Hf i r H. exact (Hct Hf _ _ (proj1 (eff_alpha _ _ _ _ H))).
  - intros Hf i r H. exact (Hch Hf _ _ (proj1 (eff_to_channels _ _ _ _ H))).
  - intros Hf i red H Hi. destruct (eff_to_indexed _ _ _ H) as (C & _). split; [exact (Hct Hf _ _ C Hi)|].
    intros r Hs. exact (Hct Hf _ _ (ctype_then_palette _ _ _ _ C (eff_sorted_palette _ _ Hs)) Hi).
  - intros Hf i r H. exact (Hpl Hf _ _ (eff_battiato _ _ H)).
  - intros Hf i r H. exact (Hpl Hf _ _ (eff_mzeng _ _ H)).
  - intros Hf i r H. exact (Hbd Hf _ _ (eff_8_or_less _ _ H)).
  - intros st0 H. exact (Hst _ (eff_s_interlace _ _ _ H)).
Qed.
End Header.

Corollary geom_inv (P : ihdr -> Prop) baseline evs :
  (forall a b, same_geom b a -> P a -> P b) ->
  (forall h, interlace_change (interlace o) (hdr img) h -> P h) ->
  perform_reductions e o img = Ok (baseline, evs) -> all_candidates (fun i => P (hdr i)) baseline evs.
Proof. intros HP Hst. apply (header_inv P P (fun _ H => H)); try exact Hst; intros _ a b [G _]; exact (HP a b G). Qed.

Theorem dims_preserved baseline evs : perform_reductions e o img = Ok (baseline, evs) ->
  all_candidates (fun i => width (hdr i) = width (hdr img) /\ height (hdr i) = height (hdr img)) baseline evs.
Proof.
  apply (geom_inv (fun h => width h = width (hdr img) /\ height h = height (hdr img))).
  - intros a b (W & H & _) [A B]. split; congruence.
  - intros h (W & H & _). auto.
Qed.

Theorem depth_preserved baseline evs : bit_depth_reduction o = false ->
  perform_reductions e o img = Ok (baseline, evs) ->
  all_candidates (fun i => depth (hdr i) = depth (hdr img)) baseline evs.
Proof.
  intros Hoff. apply (header_inv (fun h => depth h = depth (hdr img)) _ (fun _ H => H)).
  - rewrite Hoff. discriminate.
  - intros _ a b (_ & D & _). congruence.
  - intros _ a b (_ & D & _). congruence.
  - intros _ a b (_ & D & _). congruence.
  - intros h (_ & _ & D & _). exact D.
Qed.

Theorem color_type_preserved baseline evs : color_type_reduction o = false ->
  perform_reductions e o img = Ok (baseline, evs) ->
  all_candidates (fun i => png_header_code (ctype (hdr i)) = png_header_code (ctype (hdr img))) baseline evs.
Proof.
  intros Hoff. apply (header_inv (fun h => png_header_code (ctype h) = png_header_code (ctype (hdr img))) _ (fun _ H => H)).
  - intros _ a b (_ & C & _). congruence.
  - intros _ a b (_ & _ & C & _). congruence.
  - rewrite Hoff. discriminate.
  - rewrite Hoff. discriminate.
  - intros h (_ & _ & _ & C & _). rewrite C. reflexivity.
Qed.

Theorem grayness_preserved baseline evs : grayscale_reduction o = false ->
  perform_reductions e o img = Ok (baseline, evs) ->
  all_candidates (fun i => grayness i = grayness img) baseline evs.
Proof.
  intros Hoff. unfold grayness. apply (header_inv (fun h => is_gray (ctype h) = is_gray (ctype (hdr img))) _ (fun _ H => H)).
  - intros _ a b (_ & _ & G & _). congruence.
  - intros _ a b (_ & _ & _ & G). congruence.
  - intros _ a b (_ & _ & _ & G) Ha. rewrite (G Hoff). exact Ha.
  - intros _ a b (_ & _ & _ & G) Ha. rewrite (G Hoff). exact Ha.
  - intros h (_ & _ & _ & C & _). rewrite C. reflexivity.
Qed.

(* every candidate has the requested interlacing, or the input's if none is requested *)
Theorem interlace_as_requested baseline evs : perform_reductions e o img = Ok (baseline, evs) ->
  all_candidates (fun i => interlaced (hdr i) = match interlace o with Some m => m | None => interlaced (hdr img) end) baseline evs.
Proof.
  apply (geom_inv (fun h => interlaced h = match interlace o with Some m => m | None => interlaced (hdr img) end)).
  - intros a b (_ & _ & I). congruence.
  - intros h (_ & _ & _ & _ & I). exact I.
Qed.

Corollary interlace_kept baseline evs : interlace o = None ->
  perform_reductions e o img = Ok (baseline, evs) ->
  all_candidates (fun i => interlaced (hdr i) = interlaced (hdr img)) baseline evs.
Proof. intros Hil H. pose proof (interlace_as_requested _ _ H) as R. rewrite Hil in R. exact R. Qed.

Corollary interlace_forced baseline evs m : interlace o = Some m ->
  perform_reductions e o img = Ok (baseline, evs) ->
  all_candidates (fun i => interlaced (hdr i) = m) baseline evs.
Proof. intros Hil H. pose proof (interlace_as_requested _ _ H) as R. rewrite Hil in R. exact R. Qed.

(* palette changes disabled: an indexed image that stays indexed keeps its exact palette, in order *)
Theorem palette_preserved baseline evs pal : palette_reduction o = false ->
  ctype (hdr img) = Indexed pal ->
  perform_reductions e o img = Ok (baseline, evs) ->
  ctype (hdr baseline) = Indexed pal /\
  Forall (ev_ok (fun i => forall p, ctype (hdr i) = Indexed p -> p = pal)) evs.
Proof.
  intros Hoff Hc.
  apply (header_inv (fun h => ctype h = Indexed pal) (fun h => forall p, ctype h = Indexed p -> p = pal)).
  - intros h -> p [= <-]. reflexivity.
  - intros _ a b (_ & _ & _ & K). exact (K pal).
  - rewrite Hoff. discriminate.
  - intros _ a b (_ & _ & N & _) Ha. rewrite Ha in N. discriminate.
  - intros _ a b (_ & _ & N & _) _ p Hp. rewrite Hp in N. discriminate.
  - intros h (_ & _ & _ & C & _). rewrite C. exact Hc.
Qed.
End Pipe.
