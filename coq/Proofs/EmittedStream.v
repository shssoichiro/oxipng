(* What optimize_raw emits, down to the IDAT content. optimize_raw_provenance: the data of the emitted candidate is the compressor's
   answer for the filtered scan lines of its own image under its own filter. emitted_stream_decodes: that stream decodes, under the
   specification, to the picture the emitted image means (up to alpha equivalence if the alpha optimisation is allowed); with the
   pipeline theorems: to the input's picture (C01), to an alpha-equivalent one (C03). emitted_idat_valid_partial (C02): the stream
   cuts into the rows the header implies and un-filters to the image data. *)
From OxiVerif Require Import Base.Common Spec.Decode Model.Types Model.Options Model.Filters Model.Optimize Proofs.Bridge Proofs.PipelineProofs
  Proofs.PipelineLossless Proofs.FilterStream Proofs.LiftAlpha Proofs.AlphaStream.
Local Open Scope Z_scope.

Section Prov.
Variable e : env.

(* the data of a candidate is what its image, filter and flags say *)
Definition cand_ok (c : candidate) : Prop :=
  exists alpha filtered, filter_image (e_brute e (c_image c) alpha) (c_image c) (c_filter c) alpha = Ok filtered /\
    (if c_compressed c then exists d, c_cdata c = z_deflate e d filtered else c_cdata c = filtered).

Theorem optimize_raw_provenance o img max_size c :
  optimize_raw e o img max_size = Ok (Some c) ->
  c_compressed c = true /\ cand_ok_in e (optimize_alpha o) c.
Proof.
  intros H. destruct (optimize_raw_runs_reductions _ _ _ _ _ H) as (b & evs & Hpr).
  destruct (optimize_raw_good _ _ _ _ _ _ _ Hpr H) as (Hc & _ & Hok). split; assumption.
Qed.

End Prov.

(* the stream that was compressed into the emitted IDAT decodes, under the specification, to the picture its image means; only
   where the alpha optimisation is allowed may the filters have altered pixels, and then invisible ones *)
Theorem emitted_stream_decodes e o img max_size c pic :
  optimize_raw e o img max_size = Ok (Some c) -> means pic (c_image c) ->
  exists d stream pic', c_cdata c = z_deflate e d stream /\
    spec_decode_stream (width (hdr (c_image c))) (height (hdr (c_image c))) (spec_color_of (ctype (hdr (c_image c))))
                       (depth (hdr (c_image c))) (interlaced (hdr (c_image c))) stream = Some pic' /\
    pic_aequiv pic pic' /\ (optimize_alpha o = false -> pic' = pic).
Proof.
  intros H [Hwf Hsem].
  destruct (optimize_raw_provenance e o img max_size c H) as [Hc (al & filtered & Hal & Hf & Hd)].
  rewrite Hc in Hd. destruct Hd as [d Hd]. exists d, filtered.
  destruct (filter_image_decodes_aequiv _ _ _ _ _ _ Hwf Hsem Hf) as (pic' & E & A & Ex).
  exists pic'. repeat split; [exact Hd|exact E|exact A|]. intros Ha. apply Ex.
  destruct al; [|reflexivity]. rewrite (Hal eq_refl) in Ha. discriminate.
Qed.

(* C01 down to the IDAT content: the emitted, compressed data is the compressor's answer for a stream that the specification's
   decoder (reconstruction of the filtered rows, then the meaning of the image data) maps to the input's picture *)
Theorem emitted_stream_lossless_partial e o img max_size c pic :
  optimize_alpha o = false -> scale_16 o = false -> means pic img ->
  optimize_raw e o img max_size = Ok (Some c) ->
  exists d stream, c_cdata c = z_deflate e d stream /\
    spec_decode_stream (width (hdr (c_image c))) (height (hdr (c_image c))) (spec_color_of (ctype (hdr (c_image c))))
                       (depth (hdr (c_image c))) (interlaced (hdr (c_image c))) stream = Some pic.
Proof.
  intros Ha Hs Hm H.
  destruct (emitted_stream_decodes e o img max_size c pic H (optimize_raw_lossless_partial e o img max_size c pic Ha Hs Hm H))
    as (d & stream & pic' & Hd & Hdec & _ & E).
  rewrite (E Ha) in Hdec. eauto.
Qed.

(* C02, IDAT content: the emitted data is the compression of a stream that the specification cuts into exactly the rows the header
   implies (so its size is the size the header implies), every row starts with a filter type 0..4, and un-filtering gives the image data *)
Theorem emitted_idat_valid_partial e o img max_size c pic :
  optimize_alpha o = false -> scale_16 o = false -> means pic img ->
  optimize_raw e o img max_size = Ok (Some c) ->
  exists d stream, c_cdata c = z_deflate e d stream /\
    spec_unfilter (width (hdr (c_image c))) (height (hdr (c_image c))) (bpp (hdr (c_image c))) (interlaced (hdr (c_image c))) stream
    = Some (data (c_image c)).
Proof.
  intros Ha Hs Hm H.
  destruct (optimize_raw_lossless_partial e o img max_size c pic Ha Hs Hm H) as [Hwf Hsem].
  destruct (optimize_raw_provenance e o img max_size c H) as [Hc (al & filtered & Hal & Hf & Hd)]. rewrite Hc in Hd. destruct Hd as [d Hd].
  destruct al; [specialize (Hal eq_refl); congruence|].
  exists d, filtered. split; [exact Hd|]. eapply filter_image_stream; eauto.
Qed.

(* C03 down to the IDAT content: with the alpha optimisation allowed, the stream that was compressed into the emitted IDAT decodes,
   under the specification, to a picture that is alpha-equivalent to the input's *)
Theorem emitted_stream_alpha_partial e o img max_size c pic :
  scale_16 o = false -> ameans pic img ->
  optimize_raw e o img max_size = Ok (Some c) ->
  exists d stream pic', c_cdata c = z_deflate e d stream /\
    spec_decode_stream (width (hdr (c_image c))) (height (hdr (c_image c))) (spec_color_of (ctype (hdr (c_image c))))
                       (depth (hdr (c_image c))) (interlaced (hdr (c_image c))) stream = Some pic' /\
    pic_aequiv pic pic'.
Proof.
  intros Hs Hm H. destruct (optimize_raw_alpha_partial e o img max_size c pic Hs Hm H) as (pic1 & M & A1).
  destruct (emitted_stream_decodes e o img max_size c pic1 H M) as (d & stream & pic' & Hd & Hdec & A2 & _).
  exists d, stream, pic'. repeat split; auto. exact (pic_aequiv_trans _ _ _ A1 A2).
Qed.
