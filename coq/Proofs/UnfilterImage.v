(* C19, foreign files: oxipng's own reconstruction of a whole filtered image (unfilter_image: scan lines with their filter bytes,
   reference line reset per pass) agrees with the specification's un-filtering of a (possibly interlaced) image; hence an image
   built by PngImage::new means what the specification's decoder makes of the inflated stream. *)
From OxiVerif Require Import Base.Common Base.ListFacts Spec.Filter Spec.Adam7 Spec.Sem Spec.Decode Model.Types Model.Options Model.ScanLines
  Model.Filters Proofs.Bridge Proofs.ScanProofs Proofs.LiftReductions Proofs.FilterProofs Proofs.FilterImage Proofs.FilterStream Model.Headers
  Model.PngData Proofs.HeaderProofs Proofs.RobustProofs.
Local Open Scope Z_scope.

(* a filtered scan line as the specification sees it: its pass and its bytes, filter byte first *)
Definition row_of (l : scanline) : option Z * list Z := (l_pass l, l_filter l :: l_data l).

Lemma resize0_nil n : resize0 [] n = repeat 0 n.
Proof. unfold resize0. rewrite firstn_nil. cbn [length app]. rewrite Nat.sub_0_r. reflexivity. Qed.

Lemma resize0_same l : resize0 l (length l) = l.
Proof. unfold resize0. rewrite firstn_all, Nat.sub_diag. cbn [repeat]. apply app_nil_r. Qed.

Lemma resize0_length l n : length (resize0 l n) = n.
Proof. unfold resize0. rewrite app_length, firstn_length, repeat_length. lia. Qed.

Lemma resize0_bytes l n : bytes_ok l -> bytes_ok (resize0 l n).
Proof. intros H. apply bytes_ok_app. split; [apply bytes_ok_firstn; exact H|apply bytes_ok_zeros]. Qed.

Lemma filter_of_code_inv c f : filter_of_code c = Some f -> filter_code f = c.
Proof.
  (* the ten codes are numerals below 16: four binary digits *)
  unfold filter_of_code. intros H. destruct c as [|p|p]; try discriminate; [injection H as <-; reflexivity|].
  do 4 (destruct p as [p|p|]; try discriminate; try (injection H as <-; reflexivity)).
Qed.

Lemma unfilter_line_eq f bpp data prev : (1 <= bpp <= length data)%nat -> length prev = length data ->
  unfilter_line f bpp data prev = if is_standard f then Ok (unfilter_go f bpp [] [] data prev) else Err EInvalidData.
Proof.
  intros [H1 H2] Hl. unfold unfilter_line. destruct (Nat.ltb_spec (length data) bpp); [lia|].
  rewrite Hl, Nat.eqb_refl. destruct bpp; [lia|reflexivity].
Qed.

Section Unf.
Variable bpp : nat.
Hypothesis Hbpp : (1 <= bpp)%nat.
(* every scan line of one pass has the same length *)
Variable nlen : option Z -> nat.

Definition ust_rel (st : ui_state) (sst : option (option Z * list Z)) : Prop :=
  bytes_ok (ui_last_line st) /\
  match sst with
  | None => ui_last_line st = []
  | Some (p, l) => ui_last_pass st = p /\ ui_last_line st = l /\ length l = nlen p
  end.

(* the reference line of the loop is the decoder's; FilterImage.prev_agree is the same fact about filter_image *)
Lemma last_agree st sst pass : ust_rel st sst ->
  resize0 (if negb (opt_Z_eqb (ui_last_pass st) pass) then [] else ui_last_line st) (nlen pass) = same_pass_prev sst pass (nlen pass).
Proof.
  intros [_ R]. unfold same_pass_prev. destruct sst as [[p l]|].
  - destruct R as (-> & -> & Hl). rewrite <- opt_Z_eqb_spec. destruct (opt_Z_eqb p pass) eqn:E; cbn [negb andb]; [|apply resize0_nil].
    assert (Ep : p = pass).
    { rewrite opt_Z_eqb_spec in E. destruct p, pass; try discriminate; [apply Z.eqb_eq in E; subst|]; reflexivity. }
    rewrite <- Ep, <- Hl, resize0_same, Nat.eqb_refl. reflexivity.
  - rewrite R. destruct (negb _); apply resize0_nil.
Qed.

Lemma unfilter_step_spec st sst line st' : ust_rel st sst ->
  bytes_ok (l_data line) -> length (l_data line) = nlen (l_pass line) -> (bpp <= length (l_data line))%nat ->
  unfilter_image_step bpp st line = Ok st' ->
  exists u, ui_out st' = u :: ui_out st /\ 0 <= l_filter line <= 4 /\
    u = spec_recon_line bpp (l_filter line) (l_data line) (same_pass_prev sst (l_pass line) (length (l_data line))) /\
    ust_rel st' (Some (l_pass line, u)).
Proof.
  intros R Hok Hlen Hge H. unfold unfilter_image_step in H.
  pose proof (last_agree _ _ (l_pass line) R) as Elast. rewrite <- Hlen in Elast. set (last := resize0 _ _) in *.
  assert (Hll : length last = length (l_data line)) by apply resize0_length.
  assert (Hlok : bytes_ok last) by (apply resize0_bytes; destruct (negb _); [constructor|apply R]).
  destruct (filter_of_code (l_filter line)) as [f|] eqn:Ef; [|discriminate]. apply filter_of_code_inv in Ef. rewrite <- Ef.
  (* the model accepts a line only under one of the five standard filters *)
  destruct (is_standard f) eqn:Es; [|rewrite (unfilter_line_eq _ _ _ _ (conj Hbpp Hge) Hll), Es in H; discriminate].
  rewrite (unfilter_line_is_spec f bpp _ last Hbpp Es Hge Hll Hok Hlok) in H. injection H as <-.
  eexists. split; [reflexivity|]. split; [exact (standard_code_range f Es)|]. rewrite <- Elast. split; [reflexivity|].
  split; cbn [ui_last_line ui_last_pass]; [apply recon_go_bytes|].
  split; [reflexivity|]. split; [reflexivity|]. rewrite <- Hlen. apply recon_go_length. exact Hll.
Qed.

Lemma unfilter_go_spec : forall lines st sst st', ust_rel st sst ->
  Forall (fun l => bytes_ok (l_data l) /\ length (l_data l) = nlen (l_pass l) /\ (bpp <= length (l_data l))%nat) lines ->
  unfilter_image_go bpp st lines = Ok st' ->
  exists us, ui_out st' = rev us ++ ui_out st /\
    spec_recon_seq bpp sst (map row_of lines) = Some us.
Proof.
  induction lines as [|l t IH]; intros st sst st' R Hall H; cbn [unfilter_image_go] in H.
  - injection H as <-. exists []. split; reflexivity.
  - inversion Hall as [|? ? (Hok & Hlen & Hge) Hall']; subst.
    apply bind_Ok in H as (st1 & Es & H).
    destruct (unfilter_step_spec _ _ _ _ R Hok Hlen Hge Es) as (u & Eout & Hft & Eu & R1).
    destruct (IH _ _ _ R1 Hall' H) as (us & Eout' & Hseq).
    exists (u :: us). split.
    + rewrite Eout', Eout. cbn [rev]. rewrite <- app_assoc. reflexivity.
    + cbn [map row_of spec_recon_seq].
      assert (E : (0 <=? l_filter l) && (l_filter l <=? 4) = true) by (apply andb_true_iff; split; apply Z.leb_le; lia).
      rewrite E, <- Eu, Hseq. reflexivity.
Qed.
End Unf.

Lemma cut_both (L : list (option Z * Z * Z)) : forall data, Forall (fun lay => 1 <= snd lay) L ->
  lenZ data = sumZ (map (fun l => snd l + 1) L) ->
  exists lines, cut_lines true (map (fun l => (snd l + 1, fst (fst l), snd (fst l))) L) data = Ok lines /\
    cut_filtered L data = Some (map row_of lines) /\
    Forall2 (fun lay l => l_pass l = fst (fst lay) /\ length (l_data l) = Z.to_nat (snd lay)) L lines /\
    (bytes_ok data -> Forall (fun l => bytes_ok (l_data l)) lines).
Proof.
  induction L as [|[[p n] nb] t IH]; intros data Hpos Hlen; cbn [map sumZ fold_right] in Hlen.
  - unfold lenZ in Hlen. destruct data; [|cbn in Hlen; lia]. exists []. cbn. repeat split; constructor.
  - pose proof (Forall_inv Hpos) as Hnb. cbn [snd] in Hnb. pose proof (Forall_inv_tail Hpos) as Hpos'.
    assert (Hsum : 0 <= sumZ (map (fun l => snd l + 1) t)).
    { clear -Hpos'. induction Hpos' as [|x l Hx _ IH]; cbn [map sumZ fold_right]; [lia|]. unfold sumZ in IH. lia. }
    cbn [snd] in Hlen. unfold lenZ in Hlen. unfold sumZ in Hlen, Hsum.
    destruct (IH (skipn (S (Z.to_nat nb)) data) Hpos' ltac:(unfold lenZ, sumZ; rewrite skipn_length; lia)) as (lines & Ecl & Ec & F2 & Hbytes).
    cbn [cut_filtered map cut_lines fst snd andb].
    destruct (Z.leb_spec (nb + 1) 1) as [|_]; [lia|].
    replace (Z.to_nat (nb + 1)) with (S (Z.to_nat nb)) by lia.
    destruct (Nat.ltb_spec (length data) (S (Z.to_nat nb))) as [|Hge]; [lia|]. rewrite Ecl, Ec. cbn [bind].
    destruct data as [|f d]; [cbn [length] in Hge; lia|]. cbn [firstn skipn length] in *.
    eexists (_ :: lines). split; [reflexivity|]. split; [reflexivity|]. split.
    + constructor; [|exact F2]. cbn [l_pass l_data fst snd]. split; [reflexivity|]. rewrite firstn_length. lia.
    + intros Hok. apply bytes_ok_cons in Hok. destruct Hok as [_ Hok].
      constructor; [apply bytes_ok_firstn; exact Hok|apply Hbytes, bytes_ok_skipn; exact Hok].
Qed.

Definition npix (w : Z) (p : option Z) : Z := match p with Some q => pw w q | None => w end.

Lemma layout_npix w h b il : Forall (fun lay => snd (fst lay) = npix w (fst (fst lay))) (spec_layout w h b il).
Proof.
  unfold spec_layout. destruct il.
  - apply Forall_map, Forall_flat_map, Forall_forall. intros p _. unfold spec_pass_lines.
    destruct (pw w p =? 0); [constructor|]. apply Forall_forall. intros o Ho. apply repeat_spec in Ho. subst o. reflexivity.
  - apply Forall_forall. intros lay Hl. apply repeat_spec in Hl. subst lay. reflexivity.
Qed.

Lemma scan_lines_layout (hd : ihdr) (stream : list Z) :
  1 <= width hd -> 1 <= height hd -> 1 <= bpp hd ->
  lenZ stream = spec_raw_size (width hd) (height hd) (bpp hd) (interlaced hd) true ->
  exists lines, scan_lines {| hdr := hd; data := stream |} true = Ok lines /\
    cut_filtered (spec_layout (width hd) (height hd) (bpp hd) (interlaced hd)) stream = Some (map row_of lines) /\
    Forall (fun l => length (l_data l) = Z.to_nat (line_bytes (bpp hd) (npix (width hd) (l_pass l))) /\
                     (filter_bpp (bpp hd) <= length (l_data l))%nat) lines /\
    (bytes_ok stream -> Forall (fun l => bytes_ok (l_data l)) lines).
Proof.
  intros Hw Hh Hb Hlen. unfold scan_lines. cbn [hdr data]. rewrite Hlen.
  set (L := spec_layout (width hd) (height hd) (bpp hd) (interlaced hd)).
  rewrite (scan_ranges_spec hd true Hw Hh Hb). cbn [bind].
  pose proof (Forall_and (spec_layout_lines _ _ (bpp hd) (interlaced hd) Hw) (layout_npix _ (height hd) (bpp hd) (interlaced hd))) as HL.
  fold L in HL.
  assert (HLpos : Forall (fun lay => 1 <= snd lay) L).
  { eapply Forall_impl; [|exact HL]. intros lay [[-> Hn] _]. unfold line_bytes, cdiv. apply Z.div_le_lower_bound; nia. }
  destruct (cut_both L stream HLpos Hlen) as (lines & Ecl & Ecf & F2 & Hbytes).
  exists lines. split; [exact Ecl|]. split; [exact Ecf|]. split; [|exact Hbytes].
  refine (Forall2_Forall_r _ _ _ _ _ F2 HL _). intros lay l [Hp Hl] [[Hs Hn] En]. cbn beta.
  rewrite Hp, Hl, Hs, <- En. split; [reflexivity|apply pixel_fits_line; assumption].
Qed.

Theorem unfilter_image_is_spec (hd : ihdr) (stream d : list Z) :
  1 <= width hd -> 1 <= height hd -> 1 <= bpp hd ->
  depth_legal (spec_color_of (ctype hd)) (depth hd) = true ->
  bytes_ok stream ->
  lenZ stream = spec_raw_size (width hd) (height hd) (bpp hd) (interlaced hd) true ->
  unfilter_image {| hdr := hd; data := stream |} = Ok d ->
  spec_unfilter (width hd) (height hd) (bpp hd) (interlaced hd) stream = Some d.
Proof.
  intros Hw Hh Hb Hlegal Hok Hlen H.
  destruct (scan_lines_layout hd stream Hw Hh Hb Hlen) as (lines & Esl & Ecf & Hlines & Hbytes).
  unfold unfilter_image in H. rewrite Esl in H. cbn [bind] in H.
  apply bind_Ok in H as (st & Ego & H). injection H as <-.
  pose proof (bpp_bytes_filter_bpp {| hdr := hd; data := stream |} Hlegal) as Eb. cbn [hdr] in Eb. rewrite Eb in Ego.
  set (nlen := fun p => Z.to_nat (line_bytes (bpp hd) (npix (width hd) p))).
  pose proof (Forall_and (Hbytes Hok) Hlines) as Hall.
  assert (R0 : ust_rel nlen {| ui_out := []; ui_last_line := []; ui_last_pass := None |} None) by (split; [constructor|reflexivity]).
  destruct (unfilter_go_spec (filter_bpp (bpp hd)) ltac:(unfold filter_bpp; lia) nlen _ _ _ _ R0 Hall Ego) as (us & Eout & Hseq).
  cbn [ui_out] in Eout. rewrite app_nil_r in Eout. rewrite Eout, rev_involutive.
  exact (spec_unfilter_rows _ _ _ _ _ _ _ Hw Hh Hb Ecf Hseq).
Qed.

Lemma spec_recon_seq_bytes bpp : forall rows st ls, spec_recon_seq bpp st rows = Some ls -> Forall bytes_ok ls.
Proof.
  induction rows as [|[p [|ft dt]] t IH]; intros st ls Hs; cbn [spec_recon_seq] in Hs; [injection Hs as <-; constructor|discriminate|].
  destruct ((0 <=? ft) && (ft <=? 4)); [|discriminate].
  destruct (spec_recon_seq _ _ t) as [tl0|] eqn:Et; [|discriminate]. injection Hs as <-.
  constructor; [apply recon_go_bytes|eapply IH; exact Et].
Qed.

Lemma spec_unfilter_bytes w h b il stream d : spec_unfilter w h b il stream = Some d -> bytes_ok d.
Proof.
  unfold spec_unfilter. intros H. destruct (_ || _); [discriminate|]. destruct (cut_filtered _ stream) as [rows|]; [|discriminate].
  destruct (spec_recon_seq _ None rows) as [ls|] eqn:Es; [|discriminate]. injection H as <-.
  apply Forall_concat. exact (spec_recon_seq_bytes _ _ _ _ Es).
Qed.

Theorem png_image_new_sem (e : env) (hd : ihdr) (compressed : list Z) (img : image) :
  png_image_new e hd compressed = Ok img ->
  depth_legal (spec_color_of (ctype hd)) (depth hd) = true -> 1 <= bpp hd ->
  spec_raw_size (width hd) (height hd) (bpp hd) (interlaced hd) true <= usize_max ->
  0 <= width hd -> 0 <= height hd ->
  (forall x n y, z_inflate e x n = Ok y -> bytes_ok y) ->
  exists stream, z_inflate e compressed (raw_data_size hd) = Ok stream /\ hdr img = hd /\ bytes_ok (data img) /\
    spec_unfilter (width hd) (height hd) (bpp hd) (interlaced hd) stream = Some (data img) /\
    sem img = spec_decode_stream (width hd) (height hd) (spec_color_of (ctype hd)) (depth hd) (interlaced hd) stream.
Proof.
  intros H Hlegal Hb Husz Hw0 Hh0 Hbytes.
  destruct (png_image_new_inv _ _ _ _ H) as (Hw & Hh & _ & stream & d & Ez & Hlen & Eu & ->).
  rewrite (raw_data_size_spec hd ltac:(lia) ltac:(lia) Hb Husz) in Hlen.
  pose proof (unfilter_image_is_spec hd stream d ltac:(lia) ltac:(lia) Hb Hlegal (Hbytes _ _ _ Ez) Hlen Eu) as Hsu.
  exists stream. split; [exact Ez|]. split; [reflexivity|]. cbn [hdr data].
  split; [exact (spec_unfilter_bytes _ _ _ _ _ _ Hsu)|]. split; [exact Hsu|].
  unfold sem, spec_decode_stream. cbn [hdr data]. rewrite spec_channels_of. fold (bpp hd). rewrite Hsu. reflexivity.
Qed.
