(* C15 at picture level: the picture of the scaled image is the input picture with every pixel rounded (a function of the
   picture and the colour key alone). *)
From OxiVerif Require Import Base.Common Base.ListFacts Spec.Sem Proofs.PixelProofs Proofs.ImageLift.

Definition scaled_px (c : spec_color) (p : rgba16) : rgba16 :=
  let '(r, g, b, a) := p in
  let r' := round8 r in let g' := round8 g in let b' := round8 b in
  let a' := match c with
            | SGray (Some k) => if round8 k =? r' then 0 else 65535
            | SRGB (Some (kr, kg, kb)) => if (round8 kr =? r') && (round8 kg =? g') && (round8 kb =? b') then 0 else 65535
            | _ => 257 * round8 a
            end in
  (257 * r', 257 * g', 257 * b', a').

Definition pic_map (f : rgba16 -> rgba16) (p : picture) : picture :=
  {| pic_w := pic_w p; pic_h := pic_h p; pic_px := map (map f) (pic_px p) |}.

Definition skey_ok (c : spec_color) : Prop :=
  match c with
  | SGray (Some k) => u16 k
  | SRGB (Some (r, g, b)) => u16 r /\ u16 g /\ u16 b
  | SIndexed _ => False
  | _ => True
  end.

Lemma color_scaled_map c samples : skey_ok c ->
  color_of_samples (round_key c) 8 (map round8 samples) = option_map (scaled_px c) (color_of_samples c 16 samples).
Proof.
  assert (Hbyte : forall v, u16 v -> 0 <= round8 v < 256) by (intros v Hv; apply round8_nearest; exact Hv).
  intros Hk. destruct c as [[k|]|[[[kr kg] kb]|]|pal| |]; cbn [skey_ok] in Hk; try contradiction.
  (* a wrong number of samples gives no colour on either side *)
  all: destruct samples as [|s1 [|s2 [|s3 [|s4 [|? ?]]]]]; try reflexivity.
  (* the right number: each sample is scaled; only a colour key needs an argument *)
  all: cbn [map color_of_samples round_key option_map]; rewrite ?scale16_16, ?scale16_8; try reflexivity; unfold scaled_px.
  - rewrite key_match_8 by auto. reflexivity.
  - destruct Hk as (Hr & Hg & Hb). rewrite !key_match_8 by auto. reflexivity.
Qed.

Lemma finish_map w h f crows :
  finish w h (option_map (map (map (option_map f))) crows) = option_map (pic_map f) (finish w h crows).
Proof.
  destruct crows as [cr|]; cbn [option_map finish]; [|reflexivity].
  rewrite map_map, (map_ext _ (fun r => option_map (map f) (all_some r))) by (intros r; apply all_some_map_option_map).
  rewrite <- (map_map all_some), all_some_map_option_map. destruct (all_some (map all_some cr)); reflexivity.
Qed.

Lemma gsem_factor w h b il pc pc' f data : (forall bits, pc' bits = option_map f (pc bits)) ->
  gsem w h b il pc' data = option_map (pic_map f) (gsem w h b il pc data).
Proof.
  intros E. unfold gsem. rewrite <- finish_map. f_equal.
  destruct (spec_image_pixels w h b il data) as [rows|]; cbn [option_map]; [|reflexivity].
  f_equal. rewrite map_map. apply map_ext. intros r. rewrite map_map. apply map_ext. exact E.
Qed.

Lemma gsem_map w h b il pc f data :
  gsem w h b il (fun bits => option_map f (pc bits)) data = option_map (pic_map f) (gsem w h b il pc data).
Proof. apply gsem_factor. reflexivity. Qed.

Theorem spec_sem_scaled_is_map w h c il data : skey_ok c ->
  spec_sem_scaled w h c il data = option_map (pic_map (scaled_px c)) (spec_sem w h c 16 il data).
Proof.
  intros Hk. rewrite spec_sem_scaled_gsem, spec_sem_gsem. destruct (negb (depth_legal c 16)); [reflexivity|].
  apply gsem_factor. intros bits. apply color_scaled_map. exact Hk.
Qed.
