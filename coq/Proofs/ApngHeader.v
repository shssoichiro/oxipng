(* C10: an animation whose chunks are kept is written with exactly the header of the input (colour type with palette / key, bit
   depth, interlacing, dimensions), and every frame decodes under that one header to the same picture before and after. *)
From OxiVerif Require Import Base.Common Base.ListFacts Spec.Adam7 Model.Types Model.Options Model.Headers Model.PngData Model.Optimize
  Proofs.LiftColor Proofs.EffectProofs Proofs.PipelineProofs Proofs.ChunkProofs Proofs.ApngProofs Proofs.FramePixels Proofs.ContainerOk
  Proofs.ScaledFile Proofs.ChunkFlow.
Local Open Scope Z_scope.

Theorem all_off_same_header e o img max_size c :
  bit_depth_reduction o = false -> color_type_reduction o = false -> palette_reduction o = false -> interlace o = None ->
  optimize_raw e o img max_size = Ok (Some c) -> hdr (c_image c) = hdr img.
Proof.
  intros Hb Hc Hp Hi. apply (emitted_satisfies (fun i => hdr i = hdr img)). intros b evs.
  apply (header_inv e o img (fun h => h = hdr img) (fun h => h = hdr img)); auto.
  - rewrite Hb. discriminate.
  - rewrite Hp. discriminate.
  - rewrite Hc. discriminate.
  - rewrite Hc. discriminate.
  - rewrite Hi. intros h (W & H & D & C & I). destruct h, (hdr img). cbn in *. congruence.
Qed.

(* the options after pre-processing the chunks of an animation: every reduction class off, interlacing kept *)
Lemma animation_switches_off e aux o : has_chunk name_acTL aux = true ->
  let o' := snd (preprocess_chunks e aux o) in
  bit_depth_reduction o' = false /\ color_type_reduction o' = false /\ palette_reduction o' = false /\ grayscale_reduction o' = false /\
  interlace o' = None.
Proof.
  intros Ha. cbn zeta.
  rewrite preprocess_bit_depth, preprocess_color_type, preprocess_palette, preprocess_grayscale, preprocess_interlace, preprocess_keeps_actl, Ha, !andb_false_r.
  auto.
Qed.

Section Anim.
Variable e : env.
Variable o : options.
Variable p p' : pngdata.
Hypothesis Hact : has_chunk name_acTL (aux_chunks p) = true.
Hypothesis H : optimize_png_data e p o = Ok p'.

(* the header written is the header read: colour type with its palette / key, bit depth, interlacing, dimensions *)
Theorem animation_header_untouched : hdr (raw p') = hdr (raw p).
Proof.
  destruct (animation_switches_off e (aux_chunks p) o Hact) as (Hb & Hc & Hp & Hg & Hi).
  destruct (optimize_png_data_cases e p o p' H) as [->|(ms & c & fr & Er & _ & ->)]; [reflexivity|].
  exact (all_off_same_header e _ _ ms c Hb Hc Hp Hi Er).
Qed.

(* every frame still shows the same picture, decoded under that one header (alpha-equivalent under alpha optimisation) *)
Theorem animation_frames_pixels (inflate : list Z -> option (list Z)) :
  (forall x n y, z_inflate e x n = Ok y -> inflate x = Some y /\ bytes_ok y) ->
  (forall d s, inflate (z_deflate e d s) = Some s) ->
  wf_ctype (ctype (hdr (raw p))) (depth (hdr (raw p))) ->
  Forall (fun fr => spec_raw_size (f_width fr) (f_height fr) (bpp (hdr (raw p))) (interlaced (hdr (raw p))) true <= usize_max) (frames p) ->
  Forall2 (fun a b => same_frame_fields a b /\
                      frame_same (optimize_alpha o) (frame_picture inflate (hdr (raw p)) a) (frame_picture inflate (hdr (raw p)) b))
          (frames p) (frames p').
Proof.
  intros Hz Hzd Hwf Hsz.
  destruct (optimize_png_data_aux e o p p' H) as [_ Hfields].
  assert (Hpix : Forall2 (fun a b => frame_same (optimize_alpha o) (frame_picture inflate (hdr (raw p)) a) (frame_picture inflate (hdr (raw p)) b))
                         (frames p) (frames p')).
  { destruct (animation_switches_off e (aux_chunks p) o Hact) as (Hb & Hc & Hp & Hg & Hi).
    destruct (preprocess_keeps_lossy e (aux_chunks p) o) as [Ea _].
    destruct (optimize_png_data_cases e p o p' H) as [->|(ms & c & fr & Er & Efr & ->)]; cbn [frames].
    - apply Forall2_same. intros a. apply frame_same_refl.
    - pose proof (all_off_same_header e _ _ ms c Hb Hc Hp Hi Er) as Eh.
      pose proof (fun W S => recompress_frames_top_pixels e inflate _ _ (c_filter c) fr Hz Hzd W S Efr) as T. cbn [raw frames] in T.
      rewrite Eh, Ea in T. apply T; assumption. }
  clear -Hfields Hpix. induction Hfields as [|a b ta tb [Hs _] _ IH]; inversion Hpix; subst; constructor; auto.
Qed.
End Anim.
