(* C07: the ICC decision acts on the side of the image data where the first iCCP chunk stands. *)
From OxiVerif Require Import Base.Common Base.ListFacts Model.Options Model.Headers Proofs.ChunkProofs Proofs.ContainerOk.
Local Open Scope Z_scope.

Lemma chunk_position_app_l name a b : forall i idx, chunk_position name a i = Some idx -> chunk_position name (a ++ b) i = Some idx.
Proof.
  induction a as [|c t IH]; intros i idx H; cbn [chunk_position app] in *; [discriminate|].
  destruct (cname_eqb (c_name c) name); [exact H|apply IH; exact H].
Qed.

Lemma chunk_position_app_r name a b : forall i, chunk_position name a i = None ->
  chunk_position name (a ++ b) i = chunk_position name b (i + length a).
Proof.
  induction a as [|c t IH]; intros i H; cbn [chunk_position app length] in *; [rewrite Nat.add_0_r; reflexivity|].
  destruct (cname_eqb (c_name c) name); [discriminate|]. rewrite IH by exact H. f_equal. lia.
Qed.

Theorem apply_icc_left a b d : chunk_position name_iCCP a 0 <> None ->
  apply_icc_decision (a ++ b) d = apply_icc_decision a d ++ b.
Proof.
  intros H. unfold apply_icc_decision. destruct (chunk_position name_iCCP a 0) as [idx|] eqn:E; [|contradiction].
  rewrite (chunk_position_app_l _ a b 0 idx E). destruct (chunk_position_split _ _ _ _ E) as (pre & c & post & -> & -> & _).
  rewrite <- app_assoc. cbn [app Nat.add]. destruct d; try reflexivity; rewrite ?remove_nth_app, ?set_nth_app, <- app_assoc; reflexivity.
Qed.

Lemma chunk_position_shift name l : forall i k,
  chunk_position name l (k + i) = option_map (fun x => (k + x)%nat) (chunk_position name l i).
Proof.
  induction l as [|c t IH]; intros i k; cbn [chunk_position option_map]; [reflexivity|].
  destruct (cname_eqb (c_name c) name); [reflexivity|]. replace (S (k + i)) with (k + S i)%nat by lia. apply IH.
Qed.

Theorem apply_icc_right a b d : chunk_position name_iCCP a 0 = None ->
  apply_icc_decision (a ++ b) d = a ++ apply_icc_decision b d.
Proof.
  intros H. unfold apply_icc_decision. rewrite (chunk_position_app_r _ a b 0 H).
  replace (0 + length a)%nat with (length a + 0)%nat by lia. rewrite chunk_position_shift.
  destruct (chunk_position name_iCCP b 0) as [idx|] eqn:E; cbn [option_map]; [|destruct d; reflexivity].
  destruct (chunk_position_split _ _ _ _ E) as (pre & c & post & -> & -> & _). cbn [Nat.add].
  rewrite app_assoc, <- app_length. destruct d; try reflexivity; rewrite ?remove_nth_app, ?set_nth_app, <- app_assoc; reflexivity.
Qed.

Theorem apply_icc_around_idat pre m post d : cname_eqb (c_name m) name_IDAT = true ->
  apply_icc_decision (pre ++ m :: post) d =
  match chunk_position name_iCCP pre 0 with
  | Some _ => apply_icc_decision pre d ++ m :: post
  | None => pre ++ m :: apply_icc_decision post d
  end.
Proof.
  intros Hm. destruct (chunk_position name_iCCP pre 0) as [idx|] eqn:E.
  - apply apply_icc_left. rewrite E. discriminate.
  - rewrite apply_icc_right by exact E. f_equal.
    change (m :: post) with ([m] ++ post). rewrite apply_icc_right; [reflexivity|].
    apply cname_eqb_eq in Hm. cbn [chunk_position]. rewrite Hm. reflexivity.
Qed.
