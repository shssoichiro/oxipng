(* battiato_reindex returns a list containing every palette index. The sorter grows vertex-disjoint paths ("chains") along the
   edges in order of weight; the vertex table holds, per vertex, its degree in the path forest (white 0, red 1: an endpoint,
   black 2: interior) and the number of its chain. This file: reading the table after updates, and the slack of a chain. *)
From OxiVerif Require Import Base.Common Base.ListFacts Model.Palette.
From Coq Require Import Permutation.
Local Open Scope Z_scope.

Definition stt (vx : list (Z * Z)) (v : Z) : Z := fst (nthZ vx v (0, 0)).
Definition chn (vx : list (Z * Z)) (v : Z) : Z := snd (nthZ vx v (0, 0)).

Lemma vx_set_length vx i x : length (vx_set vx i x) = length vx.
Proof. apply set_nth_length. Qed.

Lemma nthZ_vx_set vx i x v : 0 <= i < Z.of_nat (length vx) -> 0 <= v ->
  nthZ (vx_set vx i x) v (0, 0) = if Z.eq_dec v i then x else nthZ vx v (0, 0).
Proof.
  intros Hi Hv. unfold nthZ, vx_set. destruct (Z.eq_dec v i) as [->|Hne].
  - apply nth_set_nth_same. lia.
  - apply nth_set_nth_other. lia.
Qed.

Lemma stt_vx_set vx i x v : 0 <= i < Z.of_nat (length vx) -> 0 <= v -> stt (vx_set vx i x) v = if Z.eq_dec v i then fst x else stt vx v.
Proof. intros. unfold stt. rewrite nthZ_vx_set by assumption. destruct (Z.eq_dec v i); reflexivity. Qed.
Lemma chn_vx_set vx i x v : 0 <= i < Z.of_nat (length vx) -> 0 <= v -> chn (vx_set vx i x) v = if Z.eq_dec v i then snd x else chn vx v.
Proof. intros. unfold chn. rewrite nthZ_vx_set by assumption. destruct (Z.eq_dec v i); reflexivity. Qed.

Lemma stt_set_state vx i s v : 0 <= i < Z.of_nat (length vx) -> 0 <= v -> stt (set_state vx i s) v = if Z.eq_dec v i then s else stt vx v.
Proof. intros. apply stt_vx_set; assumption. Qed.
Lemma chn_set_state vx i s v : 0 <= i < Z.of_nat (length vx) -> 0 <= v -> chn (set_state vx i s) v = chn vx v.
Proof. intros. unfold set_state. rewrite chn_vx_set by assumption. destruct (Z.eq_dec v i) as [->|]; reflexivity. Qed.

(* re-labelling all members of a chain *)
Lemma fold_set_chain c : forall (l : list Z) vx, (forall v, In v l -> 0 <= v < Z.of_nat (length vx)) ->
  let vx' := fold_left (fun vx v => set_chain vx v c) l vx in
  length vx' = length vx /\ forall v, 0 <= v -> stt vx' v = stt vx v /\ chn vx' v = (if in_dec Z.eq_dec v l then c else chn vx v).
Proof.
  induction l as [|a t IH]; intros vx Hl; cbn [fold_left]; cbv zeta.
  - split; [reflexivity|]. intros v _. split; reflexivity.
  - pose proof (Hl a (or_introl eq_refl)) as Ha. destruct (IH (set_chain vx a c)) as [L G].
    { intros v Hv. unfold set_chain. rewrite vx_set_length. apply Hl. right. exact Hv. }
    split; [rewrite L; apply vx_set_length|]. intros v Hv. destruct (G v Hv) as [-> ->]. unfold set_chain.
    rewrite stt_vx_set, chn_vx_set by assumption. cbn [fst snd]. split; [destruct (Z.eq_dec v a) as [->|]; reflexivity|].
    simpl (in_dec _ _ (_ :: _)). destruct (Z.eq_dec a v), (in_dec Z.eq_dec v t), (Z.eq_dec v a); congruence.
Qed.

(* sum over a chain of 2 - degree: a path has slack 2 *)
Fixpoint slack (st : Z -> Z) (c : list Z) : Z := match c with [] => 0 | v :: t => 2 - st v + slack st t end.

Lemma slack_app st a b : slack st (a ++ b) = slack st a + slack st b.
Proof. induction a as [|x a IH]; cbn [app slack]; lia. Qed.
Lemma slack_perm st a b : Permutation a b -> slack st a = slack st b.
Proof. induction 1; cbn [slack]; lia. Qed.

(* one more edge at i and at j *)
Lemma slack_bump st st' c i j :
  (forall v, In v c -> st' v = st v + (if Z.eq_dec v i then 1 else 0) + (if Z.eq_dec v j then 1 else 0)) ->
  slack st' c = slack st c - Z.of_nat (count_occ Z.eq_dec c i) - Z.of_nat (count_occ Z.eq_dec c j).
Proof.
  induction c as [|x t IH]; intros H; [reflexivity|]. cbn [slack count_occ].
  rewrite (H x), IH by (try (intros v Hv; apply H); auto using in_eq, in_cons).
  destruct (Z.eq_dec x i), (Z.eq_dec x j); lia.
Qed.

Lemma slack_pos st c : 0 < slack st c -> exists v, In v c /\ st v < 2.
Proof.
  induction c as [|x t IH]; cbn [slack]; intros H; [lia|]. destruct (Z_lt_dec (st x) 2) as [Hx|Hx].
  - exists x. split; [left; reflexivity|exact Hx].
  - destruct IH as (v & Hv & Sv); [lia|]. exists v. split; [right; exact Hv|exact Sv].
Qed.
