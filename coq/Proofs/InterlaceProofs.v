(* The pixel routing of interlace_image (C18): the `route` table is the specification's 8x8 matrix, and the seven pass
   buffers it fills are the specification's pass lines. *)
From OxiVerif Require Import Base.Common Spec.Adam7 Model.Interlace Proofs.Adam7Geom.

Lemma matrix_table : forallb (fun b => forallb (fun a => route b a =? pass_of a b) r8) r8 = true.
Proof. vm_compute. reflexivity. Qed.

Theorem route_is_matrix x y : route (y mod 8) (x mod 8) = pass_of x y.
Proof.
  pose proof (r8_all _ x (r8_all _ y matrix_table)) as E. apply Z.eqb_eq in E. rewrite E. apply pass_of_mod8.
Qed.

Section Pix.
Context {A : Type}.

Lemma sel_route_is_sel p y (l : list A) : forall i,
  sel_route p y i l = sel (fun x => route (y mod 8) (x mod 8) =? p) i l.
Proof. induction l as [|a t IH]; intros i; simpl; auto. rewrite IH. reflexivity. Qed.

Lemma sel_ext (f g : Z -> bool) (l : list A) : forall i, (forall j, f j = g j) -> sel f i l = sel g i l.
Proof. induction l as [|a t IH]; intros i H; simpl; auto. rewrite H, (IH (i+1) H). reflexivity. Qed.

Lemma sel_false (l : list A) : forall i, sel (fun _ => false) i l = [].
Proof. induction l; intros; simpl; auto. Qed.

Lemma push_elem p y (r : list A) (b : list (list A)) : In p passes7 ->
  (if is_nil (sel_route p y 0 r) then b else b ++ [sel_route p y 0 r]) = b ++ pass_lines p y [r].
Proof.
  intros Hp. rewrite sel_route_is_sel.
  rewrite (sel_ext _ (fun x => row_in p y && col_in p x)) by (intros; rewrite route_is_matrix; apply pass_of_spec, Hp).
  cbn [pass_lines]. rewrite app_nil_r. destruct (row_in p y); cbn [andb].
  - change (fun x => col_in p x) with (col_in p). destruct (sel (col_in p) 0 r); cbn [is_nil nonempty]; [rewrite app_nil_r|]; reflexivity.
  - rewrite sel_false. cbn [is_nil]. rewrite app_nil_r. reflexivity.
Qed.

Lemma push_line_spec y (r : list A) b1 b2 b3 b4 b5 b6 b7 :
  push_line y r [b1;b2;b3;b4;b5;b6;b7] =
  [b1 ++ pass_lines 1 y [r]; b2 ++ pass_lines 2 y [r]; b3 ++ pass_lines 3 y [r]; b4 ++ pass_lines 4 y [r];
   b5 ++ pass_lines 5 y [r]; b6 ++ pass_lines 6 y [r]; b7 ++ pass_lines 7 y [r]].
Proof. unfold push_line. cbn [combine map fst snd]. rewrite !push_elem by (cbn; tauto). reflexivity. Qed.

Lemma interlace_go_spec (rows : list (list A)) : forall y b1 b2 b3 b4 b5 b6 b7,
  interlace_go y rows [b1;b2;b3;b4;b5;b6;b7] =
  [b1 ++ pass_lines 1 y rows; b2 ++ pass_lines 2 y rows; b3 ++ pass_lines 3 y rows; b4 ++ pass_lines 4 y rows;
   b5 ++ pass_lines 5 y rows; b6 ++ pass_lines 6 y rows; b7 ++ pass_lines 7 y rows].
Proof.
  induction rows as [|r t IH]; intros; cbn [interlace_go pass_lines].
  - rewrite !app_nil_r. reflexivity.
  - rewrite push_line_spec, IH. cbn [pass_lines]. rewrite !app_nil_r, <- !app_assoc. reflexivity.
Qed.

Theorem model_interlace_is_spec (rows : list (list A)) : model_interlace rows = spec_interlace rows.
Proof. unfold model_interlace, spec_interlace, passes7. rewrite interlace_go_spec. reflexivity. Qed.

End Pix.
