(* The side conditions under which the specification's whole-file decoder reads back what `output` writes for a PngData, as one
   predicate; they are derived from the input file in ContainerOk.v, where the file-to-file theorems of C01 / C03 stand. *)
From OxiVerif Require Import Base.Common Spec.Decode Spec.DecodeFile Model.Types Model.PngData Proofs.Bridge Proofs.OutputProofs Proofs.OutputDecode.
Local Open Scope Z_scope.

Definition container_ok (p' : pngdata) : Prop :=
  Forall chunk_wf (output_body p') /\ Forall not_iend (output_body p') /\
  writable (hdr (raw p')) /\ 0 <= depth (hdr (raw p')) < 256 /\ Forall not_key (aux_written p').

Lemma container_ok_decodes (inflate : list Z -> option (list Z)) p' : container_ok p' ->
  spec_decode_png inflate (output p') =
  match inflate (idat_data p') with
  | Some stream => spec_decode_stream (width (hdr (raw p'))) (height (hdr (raw p'))) (spec_color_of (ctype (hdr (raw p'))))
                                      (depth (hdr (raw p'))) (interlaced (hdr (raw p'))) stream
  | None => None
  end.
Proof. intros (C1 & C2 & C3 & C4 & C5). exact (output_decodes inflate p' C1 C2 C3 C4 C5). Qed.
