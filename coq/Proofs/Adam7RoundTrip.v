(* C18: at the level of the specification, de-interlacing an interlaced image gives back the image, for every
   width and height (pixels abstract: any pixel size). The k-th element that `sel` keeps by residue sits at index
   r + k*d of the list (nth_error_sel_mod); a pass is the selected columns of the selected rows. *)
From OxiVerif Require Import Base.Common Base.ListFacts Spec.Adam7 Proofs.Adam7Geom.
Local Open Scope Z_scope.

Section Sel.
Context {A : Type}.

Lemma nth_error_sel_mod (d r : Z) : 0 <= r < d -> forall (l : list A) (k : nat) (i : Z),
  nth_error (sel (fun x => x mod d =? r) i l) k = nth_error l (Z.to_nat ((r - i) mod d + Z.of_nat k * d)).
Proof.
  intros Hr. assert (HK : forall k : nat, 0 <= Z.of_nat k * d) by (intros; apply Z.mul_nonneg_nonneg; lia).
  induction l as [|a t IH]; intros k i; cbn [sel].
  - destruct k, (Z.to_nat _); reflexivity.
  - (* m elements are skipped before the first selected one; one step on, m - 1 or, after a selected one, d - 1 *)
    pose proof (Z.mod_pos_bound (r - i) d ltac:(lia)) as B. pose proof (mod_eq_sub d r i Hr) as E0.
    assert (Hn : (r - (i + 1)) mod d = if (r - i) mod d =? 0 then d - 1 else (r - i) mod d - 1)
      by (rewrite <- mod_pred by lia; f_equal; lia).
    set (m := (r - i) mod d) in *. clearbody m.
    destruct (Z.eqb_spec (i mod d) r) as [E|E].
    + apply E0 in E. subst m. destruct k as [|k]; cbn [nth_error]; [reflexivity|].
      rewrite IH, Hn. cbn [Z.eqb Z.add]. specialize (HK k).
      replace (Z.of_nat (S k) * d) with (Z.succ (d - 1 + Z.of_nat k * d)) by lia.
      rewrite Z2Nat.inj_succ by lia. reflexivity.
    + rewrite IH, Hn. destruct (Z.eqb_spec m 0) as [E1|E1]; [tauto|]. specialize (HK k).
      replace (m + Z.of_nat k * d) with (Z.succ (m - 1 + Z.of_nat k * d)) by lia.
      rewrite Z2Nat.inj_succ by lia. reflexivity.
Qed.

Lemma nth_error_sel_col p (r : list A) (k : nat) : In p passes7 ->
  nth_error (sel (col_in p) 0 r) k = nth_error r (Z.to_nat (x0 p + Z.of_nat k * dx p)).
Proof.
  intros Hp. destruct (pass_consts p Hp) as (_ & Hr & _). unfold col_in.
  rewrite (nth_error_sel_mod (dx p) (x0 p) Hr), Z.sub_0_r, Z.mod_small by exact Hr. reflexivity.
Qed.

Lemma nth_error_sel_row p (rows : list A) (k : nat) : In p passes7 ->
  nth_error (sel (row_in p) 0 rows) k = nth_error rows (Z.to_nat (y0 p + Z.of_nat k * dy p)).
Proof.
  intros Hp. destruct (pass_consts p Hp) as (_ & _ & _ & Hr). unfold row_in.
  rewrite (nth_error_sel_mod (dy p) (y0 p) Hr), Z.sub_0_r, Z.mod_small by exact Hr. reflexivity.
Qed.

Corollary nth_sel_col (d0 : A) p (r : list A) (k : nat) : In p passes7 ->
  x0 p + Z.of_nat k * dx p < Z.of_nat (length r) ->
  nth k (sel (col_in p) 0 r) d0 = nth (Z.to_nat (x0 p + Z.of_nat k * dx p)) r d0.
Proof.
  intros Hp Hlt. destruct (pass_consts p Hp) as (_ & Hr & _). apply nth_error_nth. rewrite nth_error_sel_col by exact Hp.
  apply nth_error_nth'. pose proof (Z.mul_nonneg_nonneg (Z.of_nat k) (dx p)). lia.
Qed.

End Sel.

Section RT.
Context {A : Type}.

Lemma pass_lines_sel p (rows : list (list A)) : forall y,
  (forall r, In r rows -> nonempty (sel (col_in p) 0 r) = true) ->
  pass_lines p y rows = map (sel (col_in p) 0) (sel (row_in p) y rows).
Proof.
  induction rows as [|r t IH]; intros y Hne; cbn [pass_lines sel map]; [reflexivity|].
  rewrite (Hne r (or_introl eq_refl)), andb_true_r. rewrite IH by (intros r' Hr'; apply Hne; right; exact Hr').
  destruct (row_in p y); reflexivity.
Qed.

Lemma nth_error_passes {B} (f : Z -> B) p : In p passes7 -> nth_error (map f passes7) (Z.to_nat (p - 1)) = Some (f p).
Proof. intros Hp. destruct (passes7_cases p Hp) as [->|[->|[->|[->|[->|[->| ->]]]]]]; reflexivity. Qed.

Theorem spec_pixel_at_interlace (rows : list (list A)) (w : nat) x y :
  (forall r, In r rows -> length r = w) -> 0 <= x < Z.of_nat w -> 0 <= y ->
  spec_pixel_at (spec_interlace rows) x y =
  match nth_error rows (Z.to_nat y) with Some r => nth_error r (Z.to_nat x) | None => None end.
Proof.
  intros Hw Hx Hy. unfold spec_pixel_at, spec_interlace. cbv zeta.
  destruct (pass_of_range x y) as (Hp & Hrow & Hcol). set (p := pass_of x y) in *. clearbody p.
  destruct (col_in_decomp p x Hp ltac:(lia) Hcol) as (Hi & Ex & Hx0).
  destruct (row_in_decomp p y Hp Hy Hrow) as (Hj & Ey & _).
  rewrite (nth_error_passes (fun p => pass_lines p 0 rows) p Hp), pass_lines_sel.
  - rewrite nth_error_map, nth_error_sel_row, Z2Nat.id, <- Ey by assumption.
    destruct (nth_error rows (Z.to_nat y)) as [r|]; cbn [option_map]; [|reflexivity].
    rewrite nth_error_sel_col, Z2Nat.id, <- Ex by assumption. reflexivity.
  - (* x itself is a column of the pass, so no row of the pass is empty *)
    intros r Hr. assert (E : nth_error (sel (col_in p) 0 r) 0 <> None).
    { rewrite nth_error_sel_col by exact Hp. apply nth_error_Some. rewrite (Hw r Hr). lia. }
    destruct (sel (col_in p) 0 r); [exfalso; apply E; reflexivity|reflexivity].
Qed.

(* spec_deinterlace returns the grid whose cells spec_pixel_at reads *)
Lemma spec_deinterlace_grid (passes : list (list (list A))) w h G :
  length G = Z.to_nat h -> Forall (fun r => length r = Z.to_nat w) G ->
  (forall x y, 0 <= x < w -> 0 <= y < h ->
     spec_pixel_at passes x y = match nth_error G (Z.to_nat y) with Some r => nth_error r (Z.to_nat x) | None => None end) ->
  spec_deinterlace w h passes = Some G.
Proof.
  intros L F Hpix. unfold spec_deinterlace.
  rewrite <- L, <- (all_some_nth_error G). f_equal. apply map_ext_in. intros y Hy. apply in_seq in Hy.
  destruct (nth_error G y) as [r|] eqn:Er; [|apply nth_error_None in Er; lia].
  assert (Hrl : length r = Z.to_nat w) by (rewrite Forall_forall in F; apply F; eapply nth_error_In; eauto).
  rewrite <- Hrl, <- (all_some_nth_error r). f_equal. apply map_ext_in. intros x Hx. apply in_seq in Hx.
  rewrite Hpix by lia. rewrite !Nat2Z.id, Er. reflexivity.
Qed.

Theorem spec_deinterlace_interlace (rows : list (list A)) (w h : Z) :
  0 <= w -> 0 <= h -> length rows = Z.to_nat h -> (forall r, In r rows -> length r = Z.to_nat w) ->
  spec_deinterlace w h (spec_interlace rows) = Some rows.
Proof.
  intros Hw Hh Hlen Hrows. apply spec_deinterlace_grid; [exact Hlen|apply Forall_forall, Hrows|].
  intros x y Hx Hy. apply (spec_pixel_at_interlace rows (Z.to_nat w)); [exact Hrows|lia|lia].
Qed.
End RT.
