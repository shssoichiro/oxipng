(* Image-level semantic theorems for the palette transformations of 8-bit indexed images (C01): reduced_palette,
   apply_palette_reorder and, through it, sorted_palette; the two co-occurrence sorters follow in LiftMzeng.v and LiftBattiato.v. *)
From OxiVerif Require Import Base.Common Base.ListFacts Spec.Sem Model.Types Model.ScanLines Model.Color Model.Palette Proofs.Bridge Proofs.LiftColor.
From Coq Require Import Permutation.

Theorem remap_sem img pal new_pal (f : Z -> Z) pic :
  depth (hdr img) = 8 -> ctype (hdr img) = Indexed pal -> wf img ->
  (forall b c, In b (data img) -> nth_error pal (Z.to_nat b) = Some c -> nth_error new_pal (Z.to_nat (f b)) = Some c) ->
  (forall b, 0 <= b < 256 -> 0 <= f b < 256) ->
  Forall rgba8_ok new_pal -> (length new_pal <= 256)%nat ->
  sem img = Some pic ->
  sem {| hdr := with_ctype (hdr img) (Indexed new_pal); data := map f (data img) |} = Some pic /\
  wf {| hdr := with_ctype (hdr img) (Indexed new_pal); data := map f (data img) |}.
Proof.
  intros Hd Hc Hwf Hmap Hbyte Hnew Hnewlen Hsem. apply sem_exact.
  apply (indexed_reduction eq img _ pal (Indexed new_pal) (fun b => [f b]) pic); auto.
  - cbn [data]. rewrite <- (map_map f (fun i => [i])), concat_map_singleton. reflexivity.
  - split; assumption.
  - intros b Hb Hbr. pose proof (Hbyte b Hbr) as Hfb. split; [constructor; [exact Hfb|constructor]|]. split; [reflexivity|].
    rewrite pxcol8 by (constructor; [exact Hfb|constructor]). cbn [spec_color_of color_of_samples]. unfold rgba8 in *.
    destruct (nth_error pal (Z.to_nat b)) as [c|] eqn:En; [|intros p Hp; discriminate].
    rewrite (Hmap b c Hb En). apply orel_refl. reflexivity.
Qed.

Lemma nthZ_set_nth (bm : list Z) v x b : 0 <= v -> 0 <= b -> (Z.to_nat v < length bm)%nat ->
  nthZ (set_nth (Z.to_nat v) x bm) b 0 = if v =? b then x else nthZ bm b 0.
Proof.
  intros Hv Hb Hlen. unfold nthZ. rewrite nth_set_nth.
  destruct (Z.eqb_spec v b), (Nat.eqb_spec (Z.to_nat b) (Z.to_nat v)), (Nat.ltb_spec (Z.to_nat v) (length bm)); reflexivity || lia.
Qed.

Lemma rgba8_nth pal j : Forall rgba8_ok pal -> rgba8_ok (nth j pal black).
Proof.
  intros H. destruct (nth_in_or_default j pal black) as [Hin| ->]; [|unfold black, rgba8_ok, byte_ok; lia].
  rewrite Forall_forall in H. exact (H _ Hin).
Qed.

Lemma nthZ_byte bm b : Forall byte_ok bm -> 0 <= nthZ bm b 0 < 256.
Proof.
  intros H. unfold nthZ. destruct (nth_in_or_default (Z.to_nat b) bm 0) as [Hin| ->]; [|lia].
  rewrite Forall_forall in H. exact (H _ Hin).
Qed.

Lemma build_byte_map_app l1 : forall l2 i bm,
  build_byte_map (l1 ++ l2) i bm = build_byte_map l2 (i + lenZ l1) (build_byte_map l1 i bm).
Proof.
  unfold lenZ. induction l1 as [|v t IH]; intros l2 i bm; cbn [app build_byte_map length]; [f_equal; lia|].
  rewrite IH. f_equal. lia.
Qed.

Lemma build_byte_map_length l : forall i bm, length (build_byte_map l i bm) = length bm.
Proof. induction l as [|v t IH]; intros i bm; cbn [build_byte_map]; [reflexivity|]. rewrite IH. apply set_nth_length. Qed.

Lemma build_byte_map_bytes l : forall i bm, Forall byte_ok bm -> Forall byte_ok (build_byte_map l i bm).
Proof.
  induction l as [|v t IH]; intros i bm Hok; cbn [build_byte_map]; [exact Hok|].
  apply IH, Forall_set_nth; [|exact Hok]. apply Z.mod_pos_bound. lia.
Qed.

(* the last write wins, hence the induction from the right *)
Lemma build_byte_map_in l bm b : length bm = 256%nat -> (forall v, In v l -> 0 <= v < 256) -> In b l ->
  exists k, nthZ (build_byte_map l 0 bm) b 0 = Z.of_nat k mod 256 /\ nth_error l k = Some b.
Proof.
  intros Hlen. induction l as [|v l IH] using rev_ind; intros Hr Hb; [destruct Hb|].
  pose proof (Hr v ltac:(apply in_or_app; right; left; reflexivity)) as Hv. pose proof (Hr b Hb) as Hbr.
  rewrite build_byte_map_app. cbn [build_byte_map]. rewrite nthZ_set_nth by (rewrite ?build_byte_map_length; lia).
  destruct (Z.eqb_spec v b) as [->|Hne].
  - exists (length l). split; [reflexivity|]. rewrite nth_error_app2, Nat.sub_diag by lia. reflexivity.
  - apply in_app_or in Hb. destruct Hb as [Hb|[Hb|[]]]; [|contradiction].
    destruct (IH (fun x Hx => Hr x (in_or_app _ _ _ (or_introl Hx))) Hb) as [k [E Hk]]. exists k. split; [exact E|].
    rewrite nth_error_app1; [exact Hk|]. apply nth_error_Some. congruence.
Qed.

(* every index that the image uses occurs in the remapping *)
Definition covers (n : Z) (remapping : list Z) (data : list Z) : Prop := forall b, In b data -> 0 <= b < n -> In b remapping.

Theorem apply_palette_reorder_sem img remapping img' pic :
  depth (hdr img) = 8 -> wf img -> (length remapping <= 256)%nat -> (forall pal, ctype (hdr img) = Indexed pal -> covers (lenZ pal) remapping (data img)) ->
  apply_palette_reorder img remapping = Ok (Some img') -> sem img = Some pic -> sem img' = Some pic /\ wf img'.
Proof.
  intros Hd Hwf Hlen Hcov Happ Hsem. unfold apply_palette_reorder in Happ.
  destruct (ctype (hdr img)) as [| |pal| |] eqn:Hc; try discriminate.
  destruct (is_identity remapping); [discriminate|].
  destruct (existsb _ remapping) eqn:Eex; [discriminate|].
  remember (repeat 0 256) as init eqn:Hinit. injection Happ as <-.
  assert (Hinitlen : length init = 256%nat) by (subst init; apply repeat_length).
  assert (Hinitok : Forall byte_ok init) by (subst init; apply bytes_ok_repeat; unfold byte_ok; lia).
  assert (Hrange : forall v, In v remapping -> 0 <= v < lenZ pal /\ v < 256).
  { intros v Hv. destruct ((v <? 0) || (lenZ pal <=? v) || (256 <=? v)) eqn:E; [|lia].
    rewrite (proj2 (existsb_exists _ _) (ex_intro _ v (conj Hv E))) in Eex. discriminate. }
  set (bm := build_byte_map remapping 0 init).
  assert (Hbm : Forall byte_ok bm) by (apply build_byte_map_bytes; exact Hinitok).
  pose proof Hwf as [Hok Hwfc]. rewrite Hc in Hwfc. destruct Hwfc as [Hpal Hpallen].
  apply (remap_sem img pal); auto.
  - intros b c Hb Hn.
    assert (Hbr : 0 <= b < 256) by (apply (bytes_ok_in (data img)); assumption).
    assert (Hbp : 0 <= b < lenZ pal).
    { assert (Z.to_nat b < length pal)%nat by (apply nth_error_Some; congruence). unfold lenZ. lia. }
    destruct (build_byte_map_in remapping init b Hinitlen (fun v Hv => ltac:(destruct (Hrange v Hv); lia)) (Hcov pal eq_refl b Hb Hbp)) as [k [E Hkn]].
    assert (Hk : (k < length remapping)%nat) by (apply nth_error_Some; congruence).
    unfold bm. rewrite E, Z.mod_small, Nat2Z.id, (map_nth_error _ _ _ Hkn) by lia. f_equal. apply nth_error_nth. exact Hn.
  - intros b Hb. apply nthZ_byte. exact Hbm.
  - rewrite Forall_map. apply Forall_forall. intros v _. apply rgba8_nth. exact Hpal.
  - rewrite map_length. exact Hlen.
Qed.

Lemma insert_sorted_perm {A} (key : A -> Z) x l : Permutation (insert_sorted key x l) (x :: l).
Proof.
  induction l as [|a t IH]; cbn [insert_sorted]; [reflexivity|].
  destruct (key x <=? key a); [reflexivity|]. rewrite IH. apply perm_swap.
Qed.

Lemma stable_sort_perm {A} (key : A -> Z) l : Permutation (stable_sort key l) l.
Proof.
  unfold stable_sort. induction l as [|a t IH]; cbn [fold_right]; [reflexivity|].
  rewrite insert_sorted_perm. constructor. exact IH.
Qed.

Lemma remove_nth_perm {A} (l : list A) : forall n,
  Permutation (match nth_error l n with Some x => x :: remove_nth n l | None => remove_nth n l end) l.
Proof.
  induction l as [|a t IH]; intros [|n]; cbn [nth_error remove_nth]; try reflexivity.
  specialize (IH n). destruct (nth_error t n); [rewrite perm_swap|]; constructor; exact IH.
Qed.

Lemma enumerated_spec (pal : list rgba8) : forall (start : nat) e,
  In e (combine (map Z.of_nat (seq start (length pal))) pal) ->
  Z.of_nat start <= fst e < Z.of_nat start + lenZ pal /\ nth_error pal (Z.to_nat (fst e) - start) = Some (snd e).
Proof.
  induction pal as [|c t IH]; intros start e H; cbn in H; [destruct H|]. unfold lenZ in *. cbn [length].
  destruct H as [<-|H].
  - cbn [fst snd]. split; [lia|]. rewrite Nat2Z.id, Nat.sub_diag. reflexivity.
  - destruct (IH (S start) e H) as [Hr Hn]. split; [lia|].
    replace (Z.to_nat (fst e) - start)%nat with (S (Z.to_nat (fst e) - S start)) by lia. exact Hn.
Qed.

Theorem sorted_palette_sem img img' pic : wf img ->
  sorted_palette img = Ok (Some img') -> sem img = Some pic -> sem img' = Some pic /\ wf img'.
Proof.
  intros Hwf Hs Hsem. unfold sorted_palette in Hs.
  destruct (depth (hdr img) =? 8) eqn:Ed; cbn [negb] in Hs; [|discriminate]. apply Z.eqb_eq in Ed.
  destruct (ctype (hdr img)) as [| |pal| |] eqn:Hc; try discriminate.
  destruct (length pal <=? 1)%nat; [discriminate|].
  destruct (scan_lines img false) as [lines| |]; cbn [bind] in Hs; try discriminate.
  destruct (most_popular_edge_color (length pal) lines) as [keep_first| |]; cbn [bind] in Hs; try discriminate.
  set (enumerated := combine (map Z.of_nat (seq 0 (length pal))) pal) in *.
  set (fr := match keep_first with
             | Some f => (nth_error enumerated (Z.to_nat f), remove_nth (Z.to_nat f) enumerated)
             | None => (None, enumerated) end) in *.
  destruct fr as [first rest] eqn:Efr.
  set (sorted := match first with Some f => f :: stable_sort (fun e => color_val (snd e)) rest | None => stable_sort (fun e => color_val (snd e)) rest end) in *.
  assert (Hperm : Permutation sorted enumerated).
  { unfold sorted. unfold fr in Efr. destruct keep_first as [f|]; injection Efr as <- <-; [|apply stable_sort_perm].
    etransitivity; [|apply (remove_nth_perm enumerated (Z.to_nat f))].
    destruct (nth_error enumerated (Z.to_nat f)); [constructor|]; apply stable_sort_perm. }
  destruct (is_identity (map fst sorted)) eqn:Eid; [discriminate|].
  remember (repeat 0 256) as init eqn:Hinit. injection Hs as <-.
  pose proof Hwf as [Hok Hwfc]. rewrite Hc in Hwfc. destruct Hwfc as [Hpal Hpallen].
  assert (Hin : forall e, In e sorted -> 0 <= fst e < lenZ pal /\ nth_error pal (Z.to_nat (fst e)) = Some (snd e)).
  { intros e He. apply (Permutation_in _ Hperm) in He. destruct (enumerated_spec pal 0 e He) as [Hr Hn].
    rewrite Nat.sub_0_r in Hn. split; [lia|exact Hn]. }
  (* the result is exactly what apply_palette_reorder computes for this remapping *)
  apply (apply_palette_reorder_sem img (map fst sorted)); auto.
  - rewrite map_length, (Permutation_length Hperm). unfold enumerated. rewrite combine_length, map_length, seq_length. lia.
  - intros pal' Hc'. rewrite Hc in Hc'. injection Hc' as <-. intros b Hb Hbr.
    apply (Permutation_in _ (Permutation_sym (Permutation_map fst Hperm))). unfold enumerated, lenZ in *.
    rewrite map_fst_combine by (rewrite map_length, seq_length; reflexivity).
    apply in_map_iff. exists (Z.to_nat b). split; [lia|]. apply in_seq. lia.
  - unfold apply_palette_reorder. rewrite Hc, Eid.
    assert (Eex : existsb (fun v => (v <? 0) || (lenZ pal <=? v) || (256 <=? v)) (map fst sorted) = false).
    { destruct (existsb _ (map fst sorted)) eqn:E; [|reflexivity]. apply existsb_exists in E. destruct E as [v [Hv E]].
      apply in_map_iff in Hv. destruct Hv as [e [<- He]]. destruct (Hin e He) as [Hr _]. unfold lenZ in *. lia. }
    rewrite Eex, <- Hinit. do 4 f_equal. f_equal.
    rewrite map_map. apply map_ext_in. intros e He. destruct (Hin e He) as [_ Hn]. unfold nthZ. apply nth_error_nth. exact Hn.
Qed.

Lemma rgba8_eqb_eq a b : rgba8_eqb a b = true -> a = b.
Proof.
  destruct a as [[[r1 g1] b1] a1], b as [[[r2 g2] b2] a2]. cbn. intros H.
  apply andb_true_iff in H. destruct H as [H H4]. apply andb_true_iff in H. destruct H as [H H3].
  apply andb_true_iff in H. destruct H as [H1 H2]. apply Z.eqb_eq in H1, H2, H3, H4. congruence.
Qed.

Lemma add_color_to_set_false color set : add_color_to_set color set false = insert_full rgba8_eqb color set.
Proof. destruct color as [[[r g] b] a]. reflexivity. Qed.

Lemma condense_spec pal : forall used i set bm dc set' bm' dc',
  0 <= i -> i + lenZ used = 256 -> length bm = 256%nat -> snd set = length (fst set) -> (Z.of_nat (snd set) <= i) ->
  condense used i pal false set bm dc = (set', bm', dc') ->
  (forall j, i <= j < 256 -> nth (Z.to_nat (j - i)) used false = true ->
     nth_error (rev (fst set')) (Z.to_nat (nthZ bm' j 0)) = Some (nth (Z.to_nat j) pal black) /\ (dc' = false -> nthZ bm' j 0 = j)) /\
  (forall j, 0 <= j < i -> nthZ bm' j 0 = nthZ bm j 0) /\
  (exists more, rev (fst set') = rev (fst set) ++ more /\ (forall y, In y more -> exists j, y = nth j pal black)) /\
  (snd set' <= 256)%nat /\ snd set' = length (fst set') /\ (dc' = false -> dc = false) /\ length bm' = 256%nat /\
  (Forall byte_ok bm -> Forall byte_ok bm').
Proof.
  induction used as [|u t IH]; intros i [items n] bm dc set' bm' dc' Hi Hlen Hbm Hn Hle H; cbn [condense fst snd] in *.
  - injection H as <- <- <-. unfold lenZ in Hlen. cbn in Hlen.
    split; [intros j Hj; lia|]. split; [reflexivity|]. split; [exists []; rewrite app_nil_r; split; [reflexivity|intros ? []]|].
    split; [cbn; lia|]. split; [exact Hn|]. split; [auto|]. split; [exact Hbm|auto].
  - unfold lenZ in Hlen. cbn [length] in Hlen.
    assert (IH1 := fun s b d => IH (i + 1) s b d set' bm' dc' ltac:(lia) ltac:(unfold lenZ; lia)). clear IH.
    assert (Hib : (Z.to_nat i < length bm)%nat) by lia.
    assert (Hshift : forall j, i <= j < 256 -> j <> i -> nth (Z.to_nat (j - i)) (u :: t) false = true ->
              i + 1 <= j < 256 /\ nth (Z.to_nat (j - (i + 1))) t false = true).
    { intros j Hj Hne. replace (Z.to_nat (j - i)) with (S (Z.to_nat (j - (i + 1)))) by lia. split; [lia|assumption]. }
    destruct u; cbn [negb] in H.
    + rewrite add_color_to_set_false in H.
      destruct (insert_full rgba8_eqb _ (items, n)) as [idx [items1 n1]] eqn:Eins.
      destruct (insert_full_spec _ rgba8_eqb_eq _ _ _ _ _ _ Hn Eins) as (Hn1 & (more1 & Hm1 & Hmore1) & Hnth1 & Hidx & Hn1le).
      assert (Hidx8 : byte_ok (Z.of_nat idx)) by (unfold byte_ok; lia).
      rewrite (Z.mod_small (Z.of_nat idx)) in H by exact Hidx8.
      destruct (IH1 (items1, n1) _ _ ltac:(rewrite set_nth_length; exact Hbm) Hn1 ltac:(cbn; lia) H)
        as (A1 & A2 & (more & Hm & Hmore) & A4 & A5 & A6 & A7 & A8). cbn [fst snd] in *.
      rewrite orb_false_iff, negb_false_iff, Z.eqb_eq in A6.
      refine (conj _ (conj _ (conj _ (conj A4 (conj A5 (conj _ (conj A7 _))))))).
      * intros j Hj Hu. destruct (Z.eq_dec j i) as [->|Hne]; [|apply A1; apply (Hshift j Hj Hne Hu)].
        rewrite (A2 i) by (clear -Hi; lia). rewrite nthZ_set_nth, Z.eqb_refl, Nat2Z.id by assumption.
        split; [|apply A6]. rewrite Hm, nth_error_app1 by (rewrite rev_length, <- Hn1; exact Hidx). exact Hnth1.
      * intros j Hj. rewrite (A2 j) by (clear -Hj; lia). rewrite nthZ_set_nth by (assumption || apply Hj).
        destruct (Z.eqb_spec i j) as [E|_]; [clear -Hj E; lia|reflexivity].
      * exists (more1 ++ more). split; [rewrite Hm, Hm1, app_assoc; reflexivity|].
        intros y Hy. apply in_app_or in Hy. destruct Hy as [Hy|Hy]; [exists (Z.to_nat i); apply Hmore1; exact Hy|apply Hmore; exact Hy].
      * apply A6.
      * intros Hok. apply A8, Forall_set_nth; assumption.
    + destruct (IH1 (items, n) _ _ Hbm Hn ltac:(cbn; lia) H) as (A1 & A2 & A). split; [|split; [|exact A]].
      * intros j Hj Hu. destruct (Z.eq_dec j i) as [->|Hne]; [rewrite Z.sub_diag in Hu; discriminate|].
        apply A1; apply (Hshift j Hj Hne Hu).
      * intros j Hj. apply A2. clear -Hj. lia.
Qed.

Lemma used_fold data : forall u, let u' := fold_left (fun u b => set_nth (Z.to_nat b) true u) data u in
  length u' = length u /\
  forall k, nth k u false = true \/ (k < length u)%nat /\ In k (map Z.to_nat data) -> nth k u' false = true.
Proof.
  induction data as [|x t IH]; intros u; cbn [fold_left map In]; [split; [reflexivity|intros k [H|[_ []]]; exact H]|].
  destruct (IH (set_nth (Z.to_nat x) true u)) as [L K]. rewrite set_nth_length in L, K. split; [exact L|].
  intros k H. apply K. destruct H as [H|[Hk [->|Hin]]].
  - left. apply nth_set_nth_idem, H.
  - left. apply nth_set_nth_same, Hk.
  - right. split; assumption.
Qed.

Theorem reduced_palette_sem img img' pic : wf img ->
  reduced_palette img false = Some img' -> sem img = Some pic -> sem img' = Some pic /\ wf img'.
Proof.
  intros Hwf Hred Hsem. unfold reduced_palette in Hred.
  destruct (depth (hdr img) =? 8) eqn:Ed; cbn [negb] in Hred; [|discriminate]. apply Z.eqb_eq in Ed.
  destruct (ctype (hdr img)) as [| |pal| |] eqn:Hc; try discriminate.
  remember (repeat 0 256) as init eqn:Hinit.
  destruct (condense (used_table (data img)) 0 pal false ([], 0%nat) init false) as [[set bm] dc] eqn:Econ.
  destruct (used_fold (data img) (repeat false 256)) as [Hul Huse]. fold (used_table (data img)) in Hul, Huse. rewrite repeat_length in Hul, Huse.
  assert (Hinitlen : length init = 256%nat) by (subst init; apply repeat_length).
  assert (Hinitok : Forall byte_ok init) by (subst init; apply bytes_ok_repeat; unfold byte_ok; lia).
  destruct (condense_spec pal (used_table (data img)) 0 ([], 0%nat) init false set bm dc ltac:(lia) ltac:(unfold lenZ; lia) Hinitlen eq_refl ltac:(cbn; lia) Econ)
    as (A1 & _ & (more & Hm & Hmore) & A4 & A5 & _ & A7 & A8).
  cbn [fst rev app] in Hm. specialize (A8 Hinitok).
  pose proof Hwf as [Hok Hwfc]. rewrite Hc in Hwfc. destruct Hwfc as [Hpal Hpallen].
  set (f := fun b => nthZ bm b 0).
  assert (Hused : forall b, In b (data img) -> nth_error (rev (fst set)) (Z.to_nat (f b)) = Some (nth (Z.to_nat b) pal black) /\ (dc = false -> f b = b)).
  { intros b Hb. assert (Hbr : 0 <= b < 256) by (apply (bytes_ok_in (data img)); assumption).
    apply A1; [lia|]. rewrite Z.sub_0_r. apply Huse. right. split; [lia|apply in_map; exact Hb]. }
  assert (Hgoal : sem {| hdr := with_ctype (hdr img) (Indexed (rev (fst set))); data := map f (data img) |} = Some pic /\
                  wf {| hdr := with_ctype (hdr img) (Indexed (rev (fst set))); data := map f (data img) |}).
  { apply (remap_sem img pal); auto.
    - intros b c Hb Hn. destruct (Hused b Hb) as [H1 _]. rewrite H1. f_equal. apply nth_error_nth. exact Hn.
    - intros b _. unfold f. apply nthZ_byte. exact A8.
    - rewrite Hm. apply Forall_forall. intros y Hy. destruct (Hmore y Hy) as [j ->].
      apply rgba8_nth. exact Hpal.
    - rewrite rev_length, <- A5. exact A4. }
  destruct dc.
  - injection Hred as <-. exact Hgoal.
  - destruct (negb (length (rev (fst set)) =? length pal)%nat); [|discriminate]. injection Hred as <-.
    assert (Hid : map f (data img) = data img).
    { rewrite <- (map_id (data img)) at 2. apply map_ext_in. intros b Hb. apply (Hused b Hb). reflexivity. }
    rewrite Hid in Hgoal. exact Hgoal.
Qed.
