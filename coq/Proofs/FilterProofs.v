(* Row filters on one scan line (C19): the specification's filter and reconstruction are inverse; filter_line, for any number of
   alpha bytes, and unfilter_line compute them for the five standard filters. *)
From OxiVerif Require Import Base.Common Spec.Filter Model.Types Model.Filters.

Lemma paeth_is_spec a b c : paeth_predictor a b c = paeth_spec a b c.
Proof. reflexivity. Qed.

Lemma paeth_spec_range a b c : byte_ok a -> byte_ok b -> byte_ok c -> byte_ok (paeth_spec a b c).
Proof.
  unfold paeth_spec, byte_ok. intros. destruct (_ && _); [|destruct (_ <=? _)]; lia.
Qed.

Lemma paeth_spec_0_b_0 b : paeth_spec 0 b 0 = b.
Proof.
  unfold paeth_spec. cbv zeta.
  destruct (Z.abs (0 + b - 0 - 0) <=? Z.abs (0 + b - 0 - b)) eqn:E1;
  destruct (Z.abs (0 + b - 0 - 0) <=? Z.abs (0 + b - 0 - 0)) eqn:E2;
  destruct (Z.abs (0 + b - 0 - b) <=? Z.abs (0 + b - 0 - 0)) eqn:E3; cbn [andb]; lia.
Qed.

Lemma roundtrip_go ft bpp line : forall rp rq prev, bytes_ok line -> length prev = length line ->
  recon_go ft bpp rp rq (filt_go ft bpp rp rq line prev) prev = line.
Proof.
  induction line as [|x l IH]; intros rp rq [|u p] Hok Hlen; try discriminate Hlen; [reflexivity|].
  apply bytes_ok_cons in Hok. destruct Hok as [Hx Hl]. cbn [filt_go recon_go].
  rewrite Zplus_mod_idemp_l, Z.sub_add, Z.mod_small by exact Hx. f_equal. apply IH; auto.
Qed.

Theorem spec_filter_roundtrip bpp ft line prev :
  bytes_ok line -> length prev = length line ->
  spec_recon_line bpp ft (spec_filter_line bpp ft line prev) prev = line.
Proof. intros. apply roundtrip_go; auto. Qed.

Lemma filt_go_length ft bpp line : forall rp rq prev, length prev = length line ->
  length (filt_go ft bpp rp rq line prev) = length line.
Proof. induction line as [|x l IH]; intros rp rq [|u p] H; simpl in *; try lia. rewrite IH; lia. Qed.

Lemma filt_go_bytes ft bpp line : forall rp rq prev, bytes_ok (filt_go ft bpp rp rq line prev).
Proof.
  induction line as [|x l IH]; intros rp rq [|u p]; simpl; try constructor.
  - apply Z.mod_pos_bound. lia.
  - apply IH.
Qed.

Lemma spec_filter_length bpp ft line prev : length prev = length line -> length (spec_filter_line bpp ft line prev) = length line.
Proof. apply filt_go_length. Qed.

Lemma recon_go_length ft bpp data : forall rp rq prev, length prev = length data ->
  length (recon_go ft bpp rp rq data prev) = length data.
Proof. induction data as [|x l IH]; intros rp rq [|u p] H; simpl in *; try lia. rewrite IH; lia. Qed.

Lemma recon_go_bytes ft bpp data : forall rp rq prev, bytes_ok (recon_go ft bpp rp rq data prev).
Proof.
  induction data as [|x l IH]; intros rp rq [|u p]; simpl; try constructor.
  - apply Z.mod_pos_bound. lia.
  - apply IH.
Qed.

Definition std_code (f : row_filter) := is_standard f = true.

Lemma back_nth_error bpp rp : back bpp rp = match nth_error rp (bpp - 1) with Some x => x | None => 0 end.
Proof. unfold back. generalize (bpp - 1)%nat as n. intros n. revert rp; induction n as [|n IH]; intros [|a t]; simpl; auto. Qed.

(* One byte of the model's loops, for op = wsub (filter_go) or wadd (unfilter_go), given what lies bpp positions back in the
   line and in the line above *)
Definition byte_step (op : Z -> Z -> Z) (f : row_filter) (left left_up : option Z) (x u : Z) : Z :=
  match f with
  | FNone => x
  | FSub => match left with Some b => op x b | None => x end
  | FUp => op x u
  | FAverage => match left with Some b => op x ((b + u) / 2) | None => op x (u / 2) end
  | _ => match left, left_up with
         | Some l, Some lu => op x (paeth_predictor l u lu)
         | _, _ => op x u
         end
  end.

Lemma filter_go_cons f bpp rp rq x d u p :
  filter_go f bpp rp rq (x :: d) (u :: p)
  = byte_step wsub f (nth_error rp (bpp - 1)) (nth_error rq (bpp - 1)) x u :: filter_go f bpp (x :: rp) (u :: rq) d p.
Proof. reflexivity. Qed.

Lemma unfilter_go_cons f bpp buf rq x d u p :
  unfilter_go f bpp buf rq (x :: d) (u :: p)
  = let y := byte_step wadd f (nth_error buf (bpp - 1)) (nth_error rq (bpp - 1)) x u in y :: unfilter_go f bpp (y :: buf) (u :: rq) d p.
Proof. reflexivity. Qed.

(* The model selects the predictor by cases on whether there is a byte bpp positions back; the specification pads with zeros
   instead, and every predictor of a standard filter gives on the padding what the model's special case gives. *)
Lemma byte_step_is_spec (op : Z -> Z -> Z) f bpp rp rq x u : is_standard f = true -> length rp = length rq -> op x 0 = x ->
  byte_step op f (nth_error rp (bpp - 1)) (nth_error rq (bpp - 1)) x u = op x (pred_spec (filter_code f) (back bpp rp) u (back bpp rq)).
Proof.
  intros Hs Hlen H0. rewrite !back_nth_error.
  assert (Hn : nth_error rp (bpp - 1) = None <-> nth_error rq (bpp - 1) = None) by (rewrite !nth_error_None, Hlen; reflexivity).
  destruct f; try discriminate Hs; cbn [byte_step filter_code pred_spec].
  - symmetry. exact H0.
  - destruct (nth_error rp (bpp - 1)); [reflexivity|symmetry; exact H0].
  - reflexivity.
  - destruct (nth_error rp (bpp - 1)); reflexivity.
  - destruct (nth_error rp (bpp - 1)) as [a|], (nth_error rq (bpp - 1)) as [c|]; try reflexivity.
    + destruct Hn as [_ Hn]. discriminate (Hn eq_refl).
    + destruct Hn as [Hn _]. discriminate (Hn eq_refl).
    + rewrite paeth_spec_0_b_0. reflexivity.
Qed.

Lemma filter_go_is_spec f bpp data : is_standard f = true ->
  forall rp rq prev, length rp = length rq -> bytes_ok data ->
  filter_go f bpp rp rq data prev = filt_go (filter_code f) bpp rp rq data prev.
Proof.
  intros Hs. induction data as [|x l IH]; intros rp rq [|u p] Hlen Hd; try reflexivity.
  apply bytes_ok_cons in Hd. destruct Hd as [Hx Hd].
  rewrite filter_go_cons, (byte_step_is_spec wsub f bpp rp rq x u Hs Hlen).
  - cbn [filt_go]. f_equal. apply IH; simpl; auto.
  - unfold wsub. rewrite Z.sub_0_r. apply Z.mod_small. exact Hx.
Qed.

Theorem filter_line_is_spec f bpp data prev ab :
  is_standard f = true -> (bpp <= length data)%nat -> length prev = length data ->
  let data' := match ab with O => data | _ => optimize_alpha_line f bpp data prev (bpp - ab) end in
  bytes_ok data' ->
  filter_line f bpp data prev ab = Ok (filter_code f :: spec_filter_line bpp (filter_code f) data' prev, data').
Proof.
  intros Hs Hl Hlen data' Hd. unfold filter_line.
  destruct (Nat.ltb_spec (length data) bpp); [lia|].
  rewrite <- Hlen, Nat.eqb_refl. cbn [negb]. fold data'. unfold filter_line_body. rewrite Hs. cbn [bind].
  rewrite filter_go_is_spec by auto. reflexivity.
Qed.

Lemma unfilter_go_is_spec f bpp data : is_standard f = true ->
  forall rp rq prev, length rp = length rq -> bytes_ok data ->
  unfilter_go f bpp rp rq data prev = recon_go (filter_code f) bpp rp rq data prev.
Proof.
  intros Hs. induction data as [|x l IH]; intros rp rq [|u p] Hlen Hd; try reflexivity.
  apply bytes_ok_cons in Hd. destruct Hd as [Hx Hd].
  rewrite unfilter_go_cons, (byte_step_is_spec wadd f bpp rp rq x u Hs Hlen).
  - cbn zeta. cbn [recon_go]. unfold wadd at 1 2. f_equal. apply IH; simpl; auto.
  - unfold wadd. rewrite Z.add_0_r. apply Z.mod_small. exact Hx.
Qed.

Theorem unfilter_line_is_spec f bpp data prev :
  (1 <= bpp)%nat -> is_standard f = true ->
  (bpp <= length data)%nat -> length prev = length data -> bytes_ok data -> bytes_ok prev ->
  unfilter_line f bpp data prev = Ok (spec_recon_line bpp (filter_code f) data prev).
Proof.
  intros Hb Hs Hl Hlen Hd Hp. unfold unfilter_line.
  destruct (Nat.ltb_spec (length data) bpp); [lia|].
  rewrite <- Hlen, Nat.eqb_refl. cbn [negb].
  destruct bpp as [|b]; [lia|]. rewrite Hs, unfilter_go_is_spec by auto. reflexivity.
Qed.

Theorem unfilter_filter_line f bpp data prev :
  (1 <= bpp)%nat -> is_standard f = true ->
  (bpp <= length data)%nat -> length prev = length data -> bytes_ok data -> bytes_ok prev ->
  exists buf, filter_line f bpp data prev 0 = Ok (filter_code f :: buf, data) /\
              spec_recon_line bpp (filter_code f) buf prev = data /\
              unfilter_line f bpp buf prev = Ok data.
Proof.
  intros Hb Hs Hl Hlen Hd Hp. pose proof (spec_filter_length bpp (filter_code f) data prev Hlen) as Hbl.
  exists (spec_filter_line bpp (filter_code f) data prev). split; [apply (filter_line_is_spec f bpp data prev 0); auto|].
  split; [apply spec_filter_roundtrip; auto|].
  rewrite unfilter_line_is_spec; try lia; auto.
  - rewrite spec_filter_roundtrip; auto.
  - apply filt_go_bytes.
Qed.
