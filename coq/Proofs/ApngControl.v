(* C10: the animation control chunk (acTL: number of frames, number of plays) of the written chunk sequence is the one of the input. *)
From OxiVerif Require Import Base.Common Base.ListFacts Spec.Decode Spec.DecodeFile Spec.Apng Model.Types Model.Options Model.Headers Model.PngData
  Model.Optimize Proofs.ChunkProofs Proofs.OutputProofs Proofs.InputParse Proofs.ChunkFlow Proofs.ApngFile.
Local Open Scope Z_scope.

Definition is_actl (c : chunk) : bool := cname_eqb (c_name c) name_acTL.

Lemma kept_at_actl o ie c : keeps_animation o -> is_actl c = true -> kept_at o ie c = true.
Proof.
  intros (K1 & K2 & K3) H. unfold is_actl in H. apply cname_eqb_eq in H. unfold kept_at, kept0, key_name, anim_name, all_anim_kept.
  rewrite H, K1, K2, K3. reflexivity.
Qed.

Lemma filter_actl_collect o l : keeps_animation o -> forall ie, List.filter is_actl (collect_aux o ie l) = List.filter is_actl l.
Proof.
  intros K. induction l as [|c t IH]; intros ie; [reflexivity|]. rewrite collect_aux_cons, filter_app, IH. cbn [List.filter].
  destruct (cname_eqb (c_name c) name_IDAT) eqn:E.
  - cbn [collect_aux]. rewrite E. apply cname_eqb_eq in E. unfold is_actl at 1 3. rewrite E. destruct ie; reflexivity.
  - rewrite (collect_aux_one o ie c E). destruct (is_actl c) eqn:A.
    + rewrite (kept_at_actl o ie c K A). cbn [List.filter]. rewrite A. reflexivity.
    + destruct (kept_at o ie c); cbn [List.filter]; rewrite ?A; reflexivity.
Qed.

Definition named_actl (c : cname * list Z) : bool := named spec_acTL c.

Lemma filter_named_map l : List.filter named_actl (map as_pair l) = map as_pair (List.filter is_actl l).
Proof. induction l as [|c t IH]; [reflexivity|]. cbn [map List.filter]. change (named_actl (as_pair c)) with (is_actl c). destruct (is_actl c); cbn [map]; rewrite IH; reflexivity. Qed.

(* the pieces into which output cuts the ancillary list at its IDAT markers hold every other chunk, in order *)
Lemma filter_split_idat (f : chunk -> bool) : (forall c, cname_eqb (c_name c) name_IDAT = true -> f c = false) ->
  forall l cur, List.filter f (concat (split_idat l cur)) = List.filter f (rev cur ++ l).
Proof.
  intros N. induction l as [|c t IH]; intros cur; cbn [split_idat concat]; [reflexivity|].
  destruct (cname_eqb (c_name c) name_IDAT) eqn:E.
  - cbn [concat]. rewrite !filter_app, IH. cbn [rev app List.filter]. rewrite (N c E). reflexivity.
  - rewrite IH. cbn [rev]. rewrite <- app_assoc. reflexivity.
Qed.

Lemma split_idat_cons l : forall cur, exists x t, split_idat l cur = x :: t.
Proof. induction l as [|c l IH]; intros cur; cbn [split_idat]; [eauto|]. destruct (cname_eqb (c_name c) name_IDAT); [eauto|apply IH]. Qed.

Theorem written_control p : List.filter named_actl (output_chunks p) = map as_pair (List.filter is_actl (aux_chunks p)).
Proof.
  rewrite output_chunks_layout. unfold written_after. destruct (split_idat_cons (aux_chunks p) []) as (pre & rest & E). rewrite E.
  assert (S : List.filter is_actl (pre ++ concat rest) = List.filter is_actl (aux_chunks p)).
  { change (pre ++ concat rest) with (concat (pre :: rest)). rewrite <- E. apply (filter_split_idat is_actl).
    intros c Hc. apply cname_eqb_eq in Hc. unfold is_actl. rewrite Hc. reflexivity. }
  rewrite <- S.
  cbn [List.filter]. change (named_actl (name_IHDR, _)) with false. cbv iota.
  rewrite !filter_app, !filter_named_map. cbn [List.filter]. change (named_actl (name_IDAT, idat_data p)) with false. cbv iota.
  rewrite !filter_app, !filter_named_map. cbn [List.filter]. change (named_actl (name_IEND, [])) with false. cbv iota.
  assert (K : List.filter named_actl (key_chunks (hdr (raw p))) = []).
  { unfold key_chunks. destruct (ctype (hdr (raw p))) as [[k|]|[[[r g] b]|]|pal| |]; try reflexivity. destruct (rposition_alpha pal 0 None); reflexivity. }
  assert (S1 : List.filter is_actl (List.filter (fun c => negb (after_plte c)) pre) = List.filter is_actl pre).
  { rewrite filter_filter. apply filter_ext. intros c. unfold is_actl, after_plte. destruct (cname_eqb (c_name c) name_acTL) eqn:Ea; [|apply andb_false_r].
    apply cname_eqb_eq in Ea. rewrite Ea. reflexivity. }
  assert (S2 : List.filter is_actl (List.filter (write_special (hdr (raw p))) pre) = []).
  { apply filter_none, Forall_filter. intros c _ Hc. unfold write_special, after_plte in Hc. unfold is_actl.
    destruct (cname_eqb (c_name c) name_acTL) eqn:Ea; [|reflexivity]. apply cname_eqb_eq in Ea. rewrite Ea in Hc. discriminate. }
  assert (F : forall fs s, List.filter named_actl (frame_chunk_list fs s) = []).
  { induction fs as [|f t IH]; intros s; [reflexivity|]. cbn [frame_chunk_list List.filter]. change (named_actl (name_fcTL, _)) with false.
    change (named_actl (name_fdAT, _)) with false. cbv iota. apply IH. }
  rewrite K, S1, S2, F. cbn [map app]. rewrite app_nil_r, map_app. reflexivity.
Qed.

Lemma actl_of_parsed bytes cs : spec_parse_png bytes = Some cs ->
  map as_pair (List.filter is_actl (map as_chunk (removelast cs))) = List.filter named_actl cs.
Proof.
  intros Hparse. unfold spec_parse_png in Hparse. destruct (list_eqb Z.eqb (firstn 8 bytes) spec_signature); [|discriminate].
  destruct (spec_parse_last _ _ _ Hparse) as (body & dend & -> & _). rewrite removelast_last, filter_app. cbn [List.filter].
  change (named_actl (spec_IEND, dend)) with false. cbv iota. rewrite app_nil_r.
  clear. induction body as [|c t IH]; [reflexivity|]. cbn [map List.filter]. change (is_actl (as_chunk c)) with (named_actl c).
  destruct (named_actl c); cbn [map]; rewrite IH; [destruct c|]; reflexivity.
Qed.

(* file to file: the animation control chunks read from the written sequence are those of the input file *)
Theorem apng_control_file_to_file e o bytes out cs :
  keeps_animation o -> bytes_ok bytes -> spec_parse_png bytes = Some cs ->
  optimize_from_memory e o bytes = Ok out ->
  out = bytes \/
  exists p', out = output p' /\ output p' = PNG_SIG ++ serialize (output_chunks p') /\
    List.filter named_actl (output_chunks p') = List.filter named_actl cs /\
    spec_apng_control (output_chunks p') = spec_apng_control cs.
Proof.
  intros Hkeep Hok Hparse H.
  destruct (chunk_flow e o bytes out cs Hok Hparse H) as [->|(p & p' & _ & _ & -> & Eser & _ & Eaux' & _)]; [left; reflexivity|right].
  exists p'. split; [reflexivity|]. split; [exact Eser|].
  assert (N : forall c, processed (c_name c) = true -> is_actl c = false) by (intros c Hc; exact (processed_other _ name_acTL Hc eq_refl)).
  assert (Main : List.filter named_actl (output_chunks p') = List.filter named_actl cs).
  { rewrite written_control, <- (actl_of_parsed bytes cs Hparse). f_equal.
    destruct Eaux' as [->| ->]; rewrite ?(filter_postprocess is_actl _ _ _ N), (filter_preprocess is_actl e _ o N);
      exact (filter_actl_collect o _ Hkeep true). }
  split; [exact Main|].
  unfold spec_apng_control. rewrite !find_filter.
  change (List.filter (named spec_acTL) (output_chunks p')) with (List.filter named_actl (output_chunks p')).
  change (List.filter (named spec_acTL) cs) with (List.filter named_actl cs). rewrite Main. reflexivity.
Qed.
