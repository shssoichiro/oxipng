(* A generic invariant theorem for perform_reductions (used by C08 and C01/C03): if every enabled
   transformation preserves a predicate P on images, then the baseline and every image handed to the
   evaluator satisfy P -- for every clock oracle. *)
From OxiVerif Require Import Base.Common Model.Types Model.Options Model.Interlace Model.BitDepth Model.Color Model.Palette Model.Reductions.

(* the sequencing rule for a list of blocks: the assertion may change from block to block *)
Lemma run_steps_cons {I J K : rd_state -> Prop} {f t} :
  (forall st st', I st -> f st = Ok st' -> J st') ->
  (forall st st', J st -> run_steps t st = Ok st' -> K st') ->
  forall st st', I st -> run_steps (f :: t) st = Ok st' -> K st'.
Proof. intros Hf Ht st st' HI H. cbn [run_steps] in H. apply bind_Ok in H as (st1 & E & H). eauto. Qed.

Lemma run_steps_nil (I : rd_state -> Prop) st st' : I st -> run_steps [] st = Ok st' -> I st'.
Proof. intros HI [= <-]. exact HI. Qed.

Lemma s_interlace_cases o png0 st0 : s_interlace o png0 = Ok st0 ->
  exists png, st0 = {| r_png := png; r_baseline := png; r_same := true; r_added := false; r_indexed := None; r_events := [] |} /\
    (png = png0 \/ exists il, interlace o = Some il /\ change_interlacing png0 il = Ok (Some png)).
Proof.
  unfold s_interlace. intros H. apply bind_Ok in H as (png & E & [= <-]). exists png. split; [reflexivity|].
  destruct (interlace o) as [il|]; [|injection E as <-; auto].
  apply bind_Ok in E as ([r|] & Ec & [= <-]); eauto.
Qed.

Section Inv.
(* P: images on the main line (png, baseline, indexed); Q: images handed to the evaluator *)
Variable P Q : image -> Prop.
Hypothesis PQ : forall i, P i -> Q i.
Variable e : env.
Variable o : options.

Definition ev_ok (ev : rd_event) : Prop := match ev with EvSubmit i _ => Q i | _ => True end.

(* B: what is known of the baseline. Until the block that retains the baseline nothing is (the blocks
   before it neither read nor write it); from there on B = P. *)
Record inv (B : image -> Prop) (st : rd_state) : Prop := {
  inv_png : P (r_png st);
  inv_base : B (r_baseline st);
  inv_idx : forall i, r_indexed st = Some i -> P i;
  inv_evs : Forall ev_ok (r_events st)
}.

Section Updates.
Variable B : image -> Prop.

Lemma inv_set_png st p same : inv B st -> P p -> inv B (set_png st p same).
Proof. intros [X Y Z W] Hp. constructor; cbn; auto. Qed.
Lemma inv_set_baseline B' st b same : inv B' st -> B b -> inv B (set_baseline st b same).
Proof. intros [X Y Z W] Hp. constructor; cbn; auto. Qed.
Lemma inv_set_indexed st i : inv B st -> P i -> inv B (set_indexed st (Some i)).
Proof. intros [X Y Z W] Hp. constructor; cbn; auto. intros j [= <-]. exact Hp. Qed.
Lemma inv_submit st i d : inv B st -> Q i -> inv B (submit st i d).
Proof. intros [X Y Z W] Hp. constructor; cbn; auto. Qed.
Lemma inv_log st s p : inv B st -> inv B (log_site st s p).
Proof. intros [X Y Z W]. constructor; cbn; auto. constructor; cbn; auto. Qed.

Lemma inv_opt_png st (r : option image) same : inv B st -> (forall x, r = Some x -> P x) ->
  inv B (match r with Some x => set_png st x same | None => st end).
Proof. intros I H. destruct r as [x|]; [apply inv_set_png; auto|exact I]. Qed.
Lemma inv_opt_submit st (r : option image) d : inv B st -> (forall x, r = Some x -> Q x) ->
  inv B (match r with Some x => submit st x d | None => st end).
Proof. intros I H. destruct r as [x|]; [apply inv_submit; auto|exact I]. Qed.

(* `flag && !deadline.passed()`: the guard only writes to the log, and going on means that the flag is set *)
Lemma guard_rule flag s {A} (body : bool -> rd_state -> res A) st r (G : Prop) :
  (forall go st1, (go = true -> flag = true) -> inv B st1 -> body go st1 = r -> G) ->
  inv B st -> (let '(go, st) := guard e flag s st in body go st) = r -> G.
Proof.
  intros H I. unfold guard. destruct flag; [|exact (H false st (fun E => E) I)].
  exact (H _ _ (fun _ => eq_refl) (inv_log _ _ _ I)).
Qed.

(* a block behind a guard: `body false` is written `Ok (if go then .. else st)` in some blocks and
   `if go then .. else Ok st` in the others; both compute to `Ok st` *)
Lemma guarded_block flag s (body : bool -> rd_state -> res rd_state) st st' :
  (forall st1, body false st1 = Ok st1) ->
  (flag = true -> forall st1, inv B st1 -> body true st1 = Ok st' -> inv B st') ->
  inv B st -> (let '(go, st) := guard e flag s st in body go st) = Ok st' -> inv B st'.
Proof.
  intros H0 H1. apply guard_rule. intros [|] st1 Hf I1; [exact (H1 (Hf eq_refl) st1 I1)|].
  rewrite H0. intros [= <-]. exact I1.
Qed.

(* the shape of the first three blocks *)
Lemma step_replace flag s (f : image -> option image) st st' :
  (flag = true -> forall i r, f i = Some r -> P i -> P r) -> inv B st ->
  (let '(go, st) := guard e flag s st in
   Ok (if go then match f (r_png st) with Some x => set_png st x true | None => st end else st)) = Ok st' ->
  inv B st'.
Proof.
  intros Hf. apply guarded_block; [reflexivity|]. intros Hfl st1 I1 [= <-].
  apply inv_opt_png; [exact I1|]. intros x E. exact (Hf Hfl _ _ E (inv_png _ _ I1)).
Qed.
End Updates.

Hypothesis Hclean : optimize_alpha o = true -> forall i r, cleaned_alpha_channel i = Some r -> P i -> P r.
Hypothesis H16 : bit_depth_reduction o = true -> forall i r, reduced_bit_depth_16_to_8 i (scale_16 o) = Some r -> P i -> P r.
Hypothesis Hgray : color_type_reduction o = true -> grayscale_reduction o = true ->
  forall i r, reduced_rgb_to_grayscale i = Some r -> P i -> P r.
Hypothesis Hexp : bit_depth_reduction o = true -> forall i r, expanded_bit_depth_to_8 i = Ok (Some r) -> P i -> P r.
Hypothesis Hpal : palette_reduction o = true -> forall i r, reduced_palette i (optimize_alpha o) = Some r -> P i -> P r.
Hypothesis Hsort : palette_reduction o = true -> forall i r, sorted_palette i = Ok (Some r) -> P i -> P r.
Hypothesis Halpha : color_type_reduction o = true -> forall i r, reduced_alpha_channel i (optimize_alpha o) = Some r -> P i -> P r.
Hypothesis Hchan : color_type_reduction o = true ->
  forall i r, indexed_to_channels i (grayscale_reduction o) (optimize_alpha o) = Some r -> P i -> Q r.
Hypothesis Hidx : color_type_reduction o = true -> forall i red, reduced_to_indexed i (grayscale_reduction o) = Some red -> P i ->
  P red /\ forall r, sorted_palette red = Ok (Some r) -> P r.
Hypothesis Hbat : palette_reduction o = true -> forall i r, sorted_palette_battiato i = Ok (Some r) -> P i -> P r.
Hypothesis Hmz : palette_reduction o = true -> forall i r, sorted_palette_mzeng i = Ok (Some r) -> P i -> P r.
Hypothesis Hdepth : bit_depth_reduction o = true -> forall i r, reduced_bit_depth_8_or_less i = Ok (Some r) -> P i -> P r.

Lemma step_clean_alpha B st st' : inv B st -> s_clean_alpha e o st = Ok st' -> inv B st'.
Proof. apply step_replace. exact Hclean. Qed.

Lemma step_16_to_8 B st st' : inv B st -> s_16_to_8 e o st = Ok st' -> inv B st'.
Proof. apply (step_replace B _ _ (fun i => reduced_bit_depth_16_to_8 i (scale_16 o))). exact H16. Qed.

Lemma step_rgb_gray B st st' : inv B st -> s_rgb_gray e o st = Ok st' -> inv B st'.
Proof. apply step_replace. intros Hf. apply andb_prop in Hf as [Hc Hg]. exact (Hgray Hc Hg). Qed.

Lemma step_expand B st st' : inv B st -> s_expand e o st = Ok st' -> inv B st'.
Proof.
  apply guarded_block; [reflexivity|]. intros Hf st1 I1 H. apply bind_Ok in H as (r & E & [= <-]).
  apply inv_opt_png; [exact I1|]. intros x ->. exact (Hexp Hf _ _ E (inv_png _ _ I1)).
Qed.

Lemma step_baseline B st st' : inv B st -> s_baseline st = Ok st' -> inv P st'.
Proof. intros I [= <-]. exact (inv_set_baseline P B _ _ _ I (inv_png _ _ I)). Qed.

Lemma step_palette st st' : inv P st -> s_palette e o st = Ok st' -> inv P st'.
Proof.
  apply guarded_block; [reflexivity|]. intros Hf st1 I1. cbv zeta.
  set (st2 := match reduced_palette _ _ with Some x => _ | None => _ end).
  assert (I2 : inv P st2).
  { subst st2. destruct (reduced_palette _ _) as [x|] eqn:E; [|exact I1].
    pose proof (Hpal Hf _ _ E (inv_png _ _ I1)) as Hx.
    destruct (list_eqb _ _ _); [apply (inv_set_baseline P P); [|exact Hx]|]; apply inv_set_png; auto. }
  clearbody st2. intros H. apply bind_Ok in H as (r & E & [= <-]).
  set (st3 := match r with Some x => _ | None => _ end).
  assert (I3 : inv P st3).
  { apply inv_opt_png; [exact I2|]. intros x ->. exact (Hsort Hf _ _ E (inv_png _ _ I2)). }
  destruct (negb _); [apply inv_submit; [exact I3|apply PQ, I3]|exact I3].
Qed.

Lemma step_alpha st st' : inv P st -> s_alpha e o st = Ok st' -> inv P st'.
Proof.
  apply guarded_block; [reflexivity|]. intros Hf st1 I1. cbv zeta.
  destruct (reduced_alpha_channel _ _) as [x|] eqn:E; [|intros [= <-]; exact I1].
  pose proof (Halpha Hf _ _ E (inv_png _ _ I1)) as Hx.
  assert (I2 : forall same, inv P (set_png st1 x same)) by (intros same; apply inv_set_png; auto).
  destruct (has_trns (ctype (hdr x))); [destruct (_ <? 0); [discriminate|]; destruct (_ <=? 1000)|]; intros [= <-].
  - apply inv_submit; auto.
  - apply (inv_set_baseline P P); auto.
  - apply (inv_set_baseline P P); auto.
Qed.

Lemma step_to_channels st st' : inv P st -> s_to_channels e o st = Ok st' -> inv P st'.
Proof.
  apply guarded_block; [reflexivity|]. intros Hf st1 I1 [= <-]. apply andb_prop in Hf as [_ Hf].
  apply inv_opt_submit; [exact I1|]. intros x E. exact (Hchan Hf _ _ E (inv_png _ _ I1)).
Qed.

Lemma step_to_indexed st st' : inv P st -> s_to_indexed e o st = Ok st' -> inv P st'.
Proof.
  apply guarded_block; [reflexivity|]. intros Hf st1 I1.
  destruct (reduced_to_indexed _ _) as [red|] eqn:E; [|intros [= <-]; exact I1].
  destruct (Hidx Hf _ _ E (inv_png _ _ I1)) as [Hred Hsp].
  intros H. apply bind_Ok in H as (sp & E2 & H). cbv zeta in H.
  set (new := match sp with Some x => _ | None => _ end) in H.
  assert (Hnew : P new) by (destruct sp as [x|]; [exact (Hsp x E2)|exact Hred]).
  clearbody new.
  destruct (_ <? 0); [discriminate|]. destruct (_ <=? INDEXED_MAX_DIFF); injection H as <-; apply inv_set_indexed; auto.
  - apply inv_submit; auto.
  - apply (inv_set_baseline P P); auto.
Qed.

Lemma step_sorts st st' : inv P st -> s_sorts e o st = Ok st' -> inv P st'.
Proof.
  intros I. unfold s_sorts. destruct (negb (is_cheap o) && palette_reduction o) eqn:Hfl; [|intros [= <-]; exact I].
  apply andb_prop in Hfl as [_ Hfl]. cbv zeta.
  set (input := match r_indexed st with Some i => _ | None => _ end).
  assert (Hin : P input).
  { subst input. destruct (r_indexed st) as [i|] eqn:Ei; [exact (inv_idx _ _ I i Ei)|apply I]. }
  clearbody input.
  revert I. apply guard_rule. intros go st1 _ I1 H. apply bind_Ok in H as ([st2 pals] & E1 & H).
  assert (I2 : inv P st2).
  { destruct go; [|injection E1 as <- <-; exact I1].
    apply bind_Ok in E1 as ([red|] & Er & E1); [destruct (palette_of red) as [p|]; [destruct (existsb _ _)|]|];
      injection E1 as <- <-; try exact I1.
    apply inv_submit; [exact I1|]. exact (PQ _ (Hbat Hfl _ _ Er Hin)). }
  revert I2 H. apply guarded_block; [reflexivity|]. intros _ st3 I3 H.
  apply bind_Ok in H as ([red|] & Er & H); [destruct (palette_of red) as [p|]; [destruct (existsb _ _)|]|];
    injection H as <-; try exact I3.
  apply inv_submit; [exact I3|]. exact (PQ _ (Hmz Hfl _ _ Er Hin)).
Qed.

Lemma step_depth st st' : inv P st -> s_depth e o st = Ok st' -> inv P st'.
Proof.
  apply guarded_block; [reflexivity|]. intros Hf st1 I1 H. apply bind_Ok in H as (reduced & E & H).
  assert (Hr : forall r0, reduced = Some r0 -> Q r0) by (intros r0 ->; exact (PQ _ (Hdepth Hf _ _ E (inv_png _ _ I1)))).
  revert I1 H. apply guard_rule. intros go st2 _ I2 H. apply bind_Ok in H as (st3 & Em & [= <-]).
  apply inv_opt_submit; [|exact Hr]. destruct go; [|injection Em as <-; exact I2].
  destruct (r_indexed st2) as [ix|] eqn:Ei; [|injection Em as <-; exact I2].
  apply bind_Ok in Em as ([x|] & E3 & Em); [destruct (match reduced with Some _ => _ | None => _ end)|];
    injection Em as <-; try exact I2.
  apply inv_submit; [exact I2|]. exact (PQ _ (Hdepth Hf _ _ E3 (inv_idx _ _ I2 _ Ei))).
Qed.

Lemma step_final st st' : inv P st -> s_final st = Ok st' -> inv P st'.
Proof. intros I [= <-]. destruct (r_added st); [apply inv_submit; [exact I|apply PQ, I]|exact I]. Qed.

(* the blocks from the third on; the first two are the only ones that look at optimize_alpha alone and at scale_16 *)
Lemma late_steps_inv B : forall st st', inv B st ->
  run_steps [s_rgb_gray e o; s_expand e o; s_baseline; s_palette e o; s_alpha e o; s_to_channels e o;
             s_to_indexed e o; s_sorts e o; s_depth e o; s_final] st = Ok st' -> inv P st'.
Proof.
  apply (run_steps_cons (step_rgb_gray B)), (run_steps_cons (step_expand B)), (run_steps_cons (step_baseline B)),
    (run_steps_cons step_palette), (run_steps_cons step_alpha), (run_steps_cons step_to_channels),
    (run_steps_cons step_to_indexed), (run_steps_cons step_sorts), (run_steps_cons step_depth),
    (run_steps_cons step_final), run_steps_nil.
Qed.

Lemma run_steps_inv B : forall st st', inv B st -> run_steps (reduction_steps e o) st = Ok st' -> inv P st'.
Proof. apply (run_steps_cons (step_clean_alpha B)), (run_steps_cons (step_16_to_8 B)), late_steps_inv. Qed.

Theorem perform_reductions_inv img baseline evs :
  (forall st0, s_interlace o img = Ok st0 -> P (r_png st0)) ->
  perform_reductions e o img = Ok (baseline, evs) ->
  P baseline /\ Forall ev_ok evs.
Proof.
  intros Hst H. unfold perform_reductions in H.
  apply bind_Ok in H as (st0 & E0 & H). apply bind_Ok in H as (st & Er & [= <- <-]).
  assert (I0 : inv (fun _ => True) st0).
  { specialize (Hst st0 E0). destruct (s_interlace_cases _ _ _ E0) as (png & -> & _). constructor; cbn; auto; discriminate. }
  apply (run_steps_inv _ _ _ I0) in Er. split; [apply Er|apply Forall_rev, Er].
Qed.
End Inv.
