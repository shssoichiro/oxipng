(* The collector / task protocol (C16): the invariant `SInv` of every reachable state; outside CDone some
   move is enabled (`no_stuck_state`); every move lowers the measure `mu`, so runs are bounded
   (`run_bounded`); a run that cannot go on has returned with every task finished
   (`maximal_run_is_complete`) and the witness moves get there (`drive_reaches_done`); two deadlocks
   when the wait for `executed >= nth` or a worker is missing. *)
From OxiVerif Require Import Base.Common Model.Sched.
Local Open Scope nat_scope.

Definition cntf (f : tstate -> nat) (l : list tstate) : nat := list_sum (map f l).
Arguments cntf : simpl never.
Definition n_spawned t := match t with TSpawned => 1 | _ => 0 end.
Definition n_started t := match t with TSpawned => 0 | _ => 1 end.
Definition n_unfinished t := match t with TFinished => 0 | _ => 1 end.
Definition n_running t := match t with TRunning _ => 1 | _ => 0 end.

Lemma cntf_app f l1 l2 : cntf f (l1 ++ l2) = cntf f l1 + cntf f l2.
Proof. unfold cntf. rewrite map_app, list_sum_app. reflexivity. Qed.

Lemma cntf_cons f h t : cntf f (h :: t) = f h + cntf f t.
Proof. reflexivity. Qed.
Lemma cntf_nil f : cntf f [] = 0.
Proof. reflexivity. Qed.

Lemma cntf_set_nth f l : forall i old x, nth_error l i = Some old ->
  cntf f (set_nth i x l) + f old = cntf f l + f x.
Proof.
  induction l as [|h t IH]; intros [|i] old x H; cbn [nth_error] in H; try discriminate.
  - injection H as ->. cbn [set_nth]. rewrite !cntf_cons. lia.
  - cbn [set_nth]. rewrite !cntf_cons. specialize (IH i old x H). lia.
Qed.

Lemma cntf_nth_le f l : forall i t, nth_error l i = Some t -> f t <= cntf f l.
Proof.
  induction l as [|h r IH]; intros [|i] t H; cbn [nth_error] in H; try discriminate; rewrite cntf_cons.
  - injection H as ->. lia.
  - specialize (IH i t H). lia.
Qed.

Lemma spawned_started l : cntf n_spawned l + cntf n_started l = length l.
Proof. induction l as [|h t IH]; [reflexivity|]. rewrite !cntf_cons. cbn [length]. destruct h; cbn [n_spawned n_started]; lia. Qed.

Lemma unfinished_split l : cntf n_unfinished l = cntf n_spawned l + cntf n_running l.
Proof. induction l as [|h t IH]; [reflexivity|]. rewrite !cntf_cons. destruct h; cbn [n_unfinished n_spawned n_running]; lia. Qed.

Lemma find_task_some p l : forall i, find_task p l = Some i -> exists t, nth_error l i = Some t /\ p t = true.
Proof.
  induction l as [|h t IH]; intros i H; cbn in H; [discriminate|].
  destruct (p h) eqn:Ep.
  - injection H as <-. exists h. split; [reflexivity|exact Ep].
  - destruct (find_task p t) as [j|] eqn:Ej; cbn in H; [|discriminate]. injection H as <-. apply (IH j eq_refl).
Qed.

Lemma find_none_cntf p f l : (forall t, p t = false -> f t = 0) -> find_task p l = None -> cntf f l = 0.
Proof.
  intros Hpf. induction l as [|h t IH]; intros H; [reflexivity|]. cbn [find_task] in H.
  destruct (p h) eqn:Eh; [discriminate|]. destruct (find_task p t); [discriminate|].
  rewrite cntf_cons, (Hpf h Eh), IH; reflexivity.
Qed.

(* each kind of move: what its guard says of s, and the successor (fields in the order cph, tasks,
   s_nth, s_executed, senders, queue, recvd); whether EStart was allowed plays no part below *)
Inductive sched_step (c : scfg) (s : sstate) : sevent -> sstate -> Prop :=
| StSubmit m : cph s = CSubmit (S m) ->
    sched_step c s ESubmit (Build_sstate (CSubmit m) (tasks s ++ [TSpawned]) (S (s_nth s)) (s_executed s) (S (senders s)) (queue s) (recvd s))
| StDrop : cph s = CSubmit 0 ->
    sched_step c s EDropSender (Build_sstate CSpin (tasks s) (s_nth s) (s_executed s) (pred (senders s)) (queue s) (recvd s))
| StStart i b : nth_error (tasks s) i = Some TSpawned ->
    sched_step c s (EStart i b) (Build_sstate (cph s) (set_nth i (TRunning (n_filters c)) (tasks s)) (s_nth s) (S (s_executed s)) (senders s) (queue s) (recvd s))
| StTrial i b k : nth_error (tasks s) i = Some (TRunning (S k)) ->
    sched_step c s (ETrial i b) (Build_sstate (cph s) (set_nth i (TRunning k) (tasks s)) (s_nth s) (s_executed s) (senders s) (if b then S (queue s) else queue s) (recvd s))
| StFinish i : nth_error (tasks s) i = Some (TRunning 0) ->
    sched_step c s (EFinish i) (Build_sstate (cph s) (set_nth i TFinished (tasks s)) (s_nth s) (s_executed s) (pred (senders s)) (queue s) (recvd s))
| StSpinExit : cph s = CSpin -> s_nth s <= s_executed s ->
    sched_step c s ESpinExit (Build_sstate CRecv (tasks s) (s_nth s) (s_executed s) (senders s) (queue s) (recvd s))
| StRecv q : cph s = CRecv -> queue s = S q ->
    sched_step c s ERecv (Build_sstate CRecv (tasks s) (s_nth s) (s_executed s) (senders s) q (S (recvd s)))
| StRecvEnd : cph s = CRecv -> queue s = 0 -> senders s = 0 ->
    sched_step c s ERecvEnd (Build_sstate CDone (tasks s) (s_nth s) (s_executed s) 0 0 (recvd s)).

Lemma sstep_step c s e s' : sstep c s e = Some s' -> sched_step c s e s'.
Proof.
  intros H. destruct e as [| |i b|i b|i| | |]; cbn in H.
  - destruct (cph s) as [[|m]| | |] eqn:Ep; try discriminate. injection H as <-. econstructor. exact Ep.
  - destruct (cph s) as [[|m]| | |] eqn:Ep; try discriminate. injection H as <-. constructor. exact Ep.
  - destruct (nth_error (tasks s) i) as [[|k|]|] eqn:En; try discriminate.
    match type of H with (if ?a then _ else _) = _ => destruct a end; [|discriminate]. injection H as <-. constructor. exact En.
  - destruct (nth_error (tasks s) i) as [[|[|k]|]|] eqn:En; try discriminate. injection H as <-. constructor. exact En.
  - destruct (nth_error (tasks s) i) as [[|[|k]|]|] eqn:En; try discriminate. injection H as <-. constructor. exact En.
  - destruct (cph s) eqn:Ep; try discriminate. destruct (Nat.leb_spec (s_nth s) (s_executed s)); [|discriminate].
    injection H as <-. constructor; auto.
  - destruct (cph s) eqn:Ep; try discriminate. destruct (queue s) eqn:Eq; [discriminate|]. injection H as <-. constructor; auto.
  - destruct (cph s) eqn:Ep; try discriminate. destruct (queue s) eqn:Eq; [|discriminate]. destruct (senders s) eqn:Es; [|discriminate].
    injection H as <-. constructor; auto.
Qed.

Record SInv (s : sstate) : Prop := {
  i_nth : s_nth s = length (tasks s);
  i_exec : s_executed s = cntf n_started (tasks s);
  i_send : senders s = (match cph s with CSubmit _ => 1 | _ => 0 end) + cntf n_unfinished (tasks s);
  i_recv : match cph s with CRecv | CDone => cntf n_spawned (tasks s) = 0 | _ => True end;
  i_done : cph s = CDone -> senders s = 0 /\ queue s = 0
}.

Lemma sinv_init n : SInv (sinit n).
Proof. constructor; cbn; auto; intros; discriminate. Qed.

Lemma sinv_task_move s i old new ex se q r : SInv s -> nth_error (tasks s) i = Some old ->
  n_unfinished old = 1 -> n_spawned new = 0 ->
  ex + n_started old = s_executed s + n_started new ->
  se = senders s + n_unfinished new - n_unfinished old ->
  SInv {| cph := cph s; tasks := set_nth i new (tasks s); s_nth := s_nth s; s_executed := ex;
          senders := se; queue := q; recvd := r |}.
Proof.
  intros [H1 H2 H3 H4 H5] En Ho Hn He Hse.
  pose proof (cntf_set_nth n_started _ _ _ new En). pose proof (cntf_set_nth n_unfinished _ _ _ new En).
  pose proof (cntf_set_nth n_spawned _ _ _ new En).
  constructor; cbn [cph tasks s_nth s_executed senders queue].
  - rewrite set_nth_length. exact H1.
  - lia.
  - lia.
  - destruct (cph s); auto; lia.
  - intros Hd. destruct (H5 Hd). rewrite Hd in H3. pose proof (cntf_nth_le n_unfinished _ _ _ En). cbn in H3. lia.
Qed.

Lemma sinv_step c s e s' : SInv s -> sstep c s e = Some s' -> SInv s'.
Proof.
  intros Hi Hs. apply sstep_step in Hs. pose proof Hi as [H1 H2 H3 H4 H5].
  destruct Hs as [m Ep|Ep|i b En|i b k En|i En|Ep Hle|q Ep Eq|Ep Eq Es].
  (* a task moves *)
  all: try solve [eapply sinv_task_move; eauto; cbn; lia].
  (* the caller moves: a new phase and one counter *)
  all: rewrite Ep in *; constructor; cbn; rewrite ?app_length, ?cntf_app, ?cntf_cons, ?cntf_nil; cbn; auto; try lia; try discriminate.
  (* leaving the spin: s_nth <= s_executed means every task has started *)
  pose proof (spawned_started (tasks s)). lia.
Qed.

Lemma srun_invariant c (P : sstate -> Prop) : (forall s e s', P s -> sstep c s e = Some s' -> P s') ->
  forall es s s', P s -> srun c s es = Some s' -> P s'.
Proof.
  intros Hstep. induction es as [|e t IH]; intros s s' Hi Hr; cbn in Hr; [injection Hr as <-; exact Hi|].
  destruct (sstep c s e) as [s1|] eqn:E; [|discriminate]. eapply IH; [eapply Hstep; eauto|exact Hr].
Qed.

Lemma sinv_run c : forall es s s', SInv s -> srun c s es = Some s' -> SInv s'.
Proof. apply (srun_invariant c SInv), sinv_step. Qed.

(* the calling thread can run spawned jobs itself, or some other worker can *)
Definition cfg_live (c : scfg) : Prop := caller_is_worker c = true \/ others c = true.

Theorem no_stuck_state c s : cfg_live c -> SInv s -> cph s <> CDone ->
  exists e s', some_enabled c s = Some e /\ sstep c s e = Some s'.
Proof.
  intros Hc [H1 H2 H3 H4 H5] Hnd. unfold some_enabled.
  destruct (cph s) as [[|m]| | |] eqn:Ep; try contradiction.
  - eexists _, _. split; [reflexivity|]. cbn. rewrite Ep. reflexivity.
  - eexists _, _. split; [reflexivity|]. cbn. rewrite Ep. reflexivity.
  - destruct (Nat.leb_spec (s_nth s) (s_executed s)) as [Hle|Hlt].
    + eexists _, _. split; [reflexivity|]. cbn. rewrite Ep. destruct (Nat.leb_spec (s_nth s) (s_executed s)); [reflexivity|lia].
    + destruct (find_task is_spawned (tasks s)) as [i|] eqn:Ef.
      * destruct (find_task_some _ _ _ Ef) as [t [Hn Ht]]. destruct t; try discriminate.
        destruct (caller_is_worker c) eqn:Ew.
        -- eexists _, _. split; [reflexivity|]. cbn. rewrite Hn, Ew, Ep. reflexivity.
        -- destruct Hc as [Hc|Hc]; [congruence|]. rewrite Hc. eexists _, _. split; [reflexivity|]. cbn. rewrite Hn, Hc. reflexivity.
      * apply (find_none_cntf _ n_spawned) in Ef; [|intros []; (discriminate || reflexivity)]. pose proof (spawned_started (tasks s)). lia.
  - destruct (queue s) as [|q] eqn:Eq.
    + destruct (find_task is_running (tasks s)) as [i|] eqn:Ef.
      * destruct (find_task_some _ _ _ Ef) as [t [Hn Ht]]. destruct t as [|[|k]|]; try discriminate; rewrite Hn.
        -- eexists _, _. split; [reflexivity|]. cbn. rewrite Hn. reflexivity.
        -- eexists _, _. split; [reflexivity|]. cbn. rewrite Hn. reflexivity.
      * apply (find_none_cntf _ n_running) in Ef; [|intros []; (discriminate || reflexivity)]. pose proof (unfinished_split (tasks s)).
        eexists _, _. split; [reflexivity|]. cbn. rewrite Ep, Eq. replace (senders s) with 0 by lia. reflexivity.
    + eexists _, _. split; [reflexivity|]. cbn. rewrite Ep, Eq. reflexivity.
Qed.

(* while the caller blocks in the receive, nothing it waits for still needs a thread to START it:
   every task is already running (on some thread's stack) or finished *)
Theorem blocking_receive_waits_only_for_started_tasks c es n s :
  srun c (sinit n) es = Some s -> cph s = CRecv ->
  forall i t, nth_error (tasks s) i = Some t -> t <> TSpawned.
Proof.
  intros Hr Hp i t Hn ->. pose proof (sinv_run c es _ _ (sinv_init n) Hr) as [_ _ _ H4 _]. rewrite Hp in H4.
  pose proof (cntf_nth_le n_spawned _ _ _ Hn) as A. cbn in A. lia.
Qed.

Lemma mu_eq c s : mu c s = phase_mu c (cph s) + cntf (task_mu c) (tasks s) + queue s.
Proof. reflexivity. Qed.

Theorem measure_decreases c s e s' : sstep c s e = Some s' -> mu c s' < mu c s.
Proof.
  intros Hs. apply sstep_step in Hs. rewrite !mu_eq.
  destruct Hs as [m Ep|Ep|i b En|i b k En|i En|Ep Hle|q Ep Eq|Ep Eq Es]; cbn [cph tasks queue]; try rewrite Ep; cbn [phase_mu]; try lia.
  - rewrite cntf_app, cntf_cons, cntf_nil. cbn [task_mu]. rewrite Nat.mul_succ_l. lia.
  - pose proof (cntf_set_nth (task_mu c) _ _ _ (TRunning (n_filters c)) En) as A. cbn [task_mu] in A. lia.
  - pose proof (cntf_set_nth (task_mu c) _ _ _ (TRunning k) En) as A. cbn [task_mu] in A. destruct b; lia.
  - pose proof (cntf_set_nth (task_mu c) _ _ _ TFinished En) as A. cbn [task_mu] in A. lia.
Qed.

(* no run is longer than the measure of its first state: no livelock *)
Theorem run_bounded c : forall es s s', srun c s es = Some s' -> length es + mu c s' <= mu c s.
Proof.
  induction es as [|e t IH]; intros s s' Hr; cbn in Hr; [injection Hr as <-; cbn; lia|].
  destruct (sstep c s e) as [s1|] eqn:E; [|discriminate]. pose proof (measure_decreases _ _ _ _ E). specialize (IH _ _ Hr). cbn [length]. lia.
Qed.

(* every submission is counted *)
Definition total_inv (n : nat) (s : sstate) : Prop :=
  match cph s with CSubmit m => s_nth s + m = n | _ => s_nth s = n end.

Lemma total_step c n s e s' : total_inv n s -> sstep c s e = Some s' -> total_inv n s'.
Proof.
  unfold total_inv. intros Hp Hs. apply sstep_step in Hs.
  destruct Hs as [m Ep|Ep|i b En|i b k En|i En|Ep Hle|q Ep Eq|Ep Eq Es]; try rewrite Ep in Hp; cbn in *; (exact Hp || lia).
Qed.

(* a run that cannot be extended has returned: all tasks finished, channel empty and disconnected,
   every submitted image was started *)
Theorem maximal_run_is_complete c n es s : cfg_live c ->
  srun c (sinit n) es = Some s -> (forall e, sstep c s e = None) ->
  cph s = CDone /\ Forall (fun t => t = TFinished) (tasks s) /\ senders s = 0 /\ queue s = 0 /\ s_nth s = n /\ s_executed s = n.
Proof.
  intros Hc Hr Hmax. pose proof (sinv_run c es _ _ (sinv_init n) Hr) as Hi.
  assert (Hd : cph s = CDone).
  { destruct (cph s) eqn:Ep; try reflexivity;
      (destruct (no_stuck_state c s Hc Hi) as (e & s1 & _ & Hs); [rewrite Ep; discriminate|]; rewrite Hmax in Hs; discriminate). }
  assert (Hn : s_nth s = n).
  { assert (T0 : total_inv n (sinit n)) by (unfold total_inv; cbn; lia).
    pose proof (srun_invariant c _ (total_step c n) es _ _ T0 Hr) as T. unfold total_inv in T. rewrite Hd in T. exact T. }
  destruct Hi as [H1 H2 H3 H4 H5]. destruct (H5 Hd) as [Hs0 Hq0]. rewrite Hd in H3, H4. cbn in H3.
  assert (Hfin : Forall (fun t => t = TFinished) (tasks s)).
  { apply Forall_forall. intros t Ht. apply In_nth_error in Ht as [i Hi].
    pose proof (cntf_nth_le n_unfinished _ _ _ Hi). destruct t; cbn [n_unfinished] in *; (reflexivity || lia). }
  pose proof (spawned_started (tasks s)).
  repeat split; auto. lia.
Qed.

(* from every reachable state the witness moves lead to the end within mu steps *)
Theorem drive_reaches_done c : cfg_live c -> forall fuel s, SInv s -> mu c s <= fuel -> cph (drive c fuel s) = CDone.
Proof.
  intros Hc. induction fuel as [|f IH]; intros s Hi Hm.
  - cbn [drive]. destruct (cph s) eqn:Ep; try reflexivity; exfalso; rewrite mu_eq, Ep in Hm; cbn [phase_mu] in Hm; lia.
  - cbn [drive]. destruct (cph s) eqn:Ep;
      try (destruct (no_stuck_state c s Hc Hi) as (e & s1 & He & Hs); [rewrite Ep; discriminate|];
           rewrite He, Hs; apply IH; [eapply sinv_step; eauto|pose proof (measure_decreases _ _ _ _ Hs); lia]).
    unfold some_enabled. rewrite Ep. exact Ep.
Qed.

(* without the wait for `executed >= nth`, on a pool whose only available thread is the caller, the
   caller blocks in the receive while the job it waits for can never start: a deadlock *)
Definition one_thread : scfg := {| n_filters := 1; caller_is_worker := true; others := false |}.

Fixpoint srun_nospin (c : scfg) (s : sstate) (es : list sevent) : option sstate :=
  match es with
  | [] => Some s
  | e :: t => match sstep_nospin c s e with Some s' => srun_nospin c s' t | None => None end
  end.

Theorem without_the_wait_a_single_thread_pool_deadlocks :
  exists s, srun_nospin one_thread (sinit 1) [ESubmit; EDropSender; ESpinExit] = Some s /\
            cph s = CRecv /\ (forall e, sstep_nospin one_thread s e = None).
Proof.
  eexists. split; [vm_compute; reflexivity|]. split; [reflexivity|].
  intros e. destruct e as [| |i b|i b|i| | |]; try reflexivity.
  - destruct b; [reflexivity|]. destruct i as [|[|i]]; reflexivity.
  - destruct i as [|[|i]]; reflexivity.
  - destruct i as [|[|i]]; reflexivity.
Qed.

(* a calling thread outside the pool depends on the pool's workers: this is the environment assumption *)
Theorem plain_thread_needs_a_worker :
  let c := {| n_filters := 1; caller_is_worker := false; others := false |} in
  exists s, srun c (sinit 1) [ESubmit; EDropSender] = Some s /\ cph s = CSpin /\ (forall e, sstep c s e = None).
Proof.
  eexists. split; [vm_compute; reflexivity|]. split; [reflexivity|].
  intros e. destruct e as [| |i b|i b|i| | |]; try reflexivity.
  - destruct b; destruct i as [|[|i]]; reflexivity.
  - destruct i as [|[|i]]; reflexivity.
  - destruct i as [|[|i]]; reflexivity.
Qed.
