(* C05: PngData::from_slice never panics, for every byte string (of fewer than usize_max / 1032 bytes, a little under 2^54), policy and error-fixing flag,
   as long as the decompressor itself returns normally: chunk walker, header parsing, saturating size arithmetic, the 1032x rule,
   scan-line iteration over the inflated stream and the per-line reconstruction all end in a value or an error. *)
From OxiVerif Require Import Base.Common Spec.Adam7 Spec.Sem Spec.Decode
  Model.Types Model.Options Model.Headers Model.ScanLines Model.Filters Model.PngData
  Proofs.Bridge Proofs.HeaderProofs Proofs.RobustProofs Proofs.FilterStream Proofs.UnfilterImage Proofs.InputParse.
Local Open Scope Z_scope.

Lemma unfilter_step_no_panic bpp st line p : (1 <= bpp <= length (l_data line))%nat -> unfilter_image_step bpp st line <> Panic p.
Proof.
  intros H. unfold unfilter_image_step. destruct (filter_of_code (l_filter line)) as [f|]; [|discriminate].
  rewrite (unfilter_line_eq _ _ _ _ H (resize0_length _ _)). destruct (is_standard f); discriminate.
Qed.

Lemma unfilter_go_no_panic bpp p : forall lines st, Forall (fun l => (1 <= bpp <= length (l_data l))%nat) lines ->
  unfilter_image_go bpp st lines <> Panic p.
Proof.
  induction lines as [|l t IH]; intros st Hall; cbn [unfilter_image_go]; [discriminate|].
  apply Forall_cons_iff in Hall. destruct Hall as [Hl Ht].
  apply bind_no_panic; [intros q; apply unfilter_step_no_panic; exact Hl|intros st1 _; apply IH; exact Ht].
Qed.

Theorem unfilter_image_no_panic (hd : ihdr) (stream : list Z) p :
  1 <= width hd -> 1 <= height hd -> 1 <= bpp hd ->
  depth_legal (spec_color_of (ctype hd)) (depth hd) = true ->
  lenZ stream = spec_raw_size (width hd) (height hd) (bpp hd) (interlaced hd) true ->
  unfilter_image {| hdr := hd; data := stream |} <> Panic p.
Proof.
  intros Hw Hh Hb Hlegal Hlen.
  destruct (scan_lines_layout hd stream Hw Hh Hb Hlen) as (lines & Esl & _ & Hlines & _).
  unfold unfilter_image. rewrite Esl. cbn [bind]. apply bind_no_panic; [|discriminate]. intros q. apply unfilter_go_no_panic.
  rewrite (bpp_bytes_filter_bpp {| hdr := hd; data := stream |} Hlegal). cbn [hdr].
  eapply Forall_impl; [|exact Hlines]. intros l [_ Hn]. split; [unfold filter_bpp; lia|exact Hn].
Qed.

Theorem png_image_new_no_panic e hd compressed p :
  0 <= width hd -> 0 <= height hd -> 1 <= bpp hd -> depth_legal (spec_color_of (ctype hd)) (depth hd) = true ->
  (forall x n q, z_inflate e x n <> Panic q) ->
  lenZ compressed < usize_max / 1032 ->
  png_image_new e hd compressed <> Panic p.
Proof.
  intros Hw Hh Hb Hlegal Hz Hsmall. unfold png_image_new.
  destruct (Z.eqb_spec (width hd) 0); [discriminate|]. destruct (Z.eqb_spec (height hd) 0); [discriminate|]. cbn [orb].
  rewrite (raw_data_size_min hd) by lia.
  destruct (Z.ltb_spec (lenZ compressed) (Z.min (spec_raw_size (width hd) (height hd) (bpp hd) (interlaced hd) true) usize_max / 1032)) as [|Hge]; [discriminate|].
  assert (Hfit : spec_raw_size (width hd) (height hd) (bpp hd) (interlaced hd) true <= usize_max).
  { destruct (Z.le_gt_cases (spec_raw_size (width hd) (height hd) (bpp hd) (interlaced hd) true) usize_max) as [|Hgt]; [assumption|].
    rewrite Z.min_r in Hge by lia. lia. }
  rewrite Z.min_l by exact Hfit.
  apply bind_no_panic; [intros q; apply Hz|]. intros raw _.
  destruct (Z.eqb_spec (lenZ raw) (spec_raw_size (width hd) (height hd) (bpp hd) (interlaced hd) true)) as [Hl|]; [|discriminate]. cbn [negb].
  apply bind_no_panic; [|discriminate]. intros q. apply unfilter_image_no_panic; auto; lia.
Qed.

Definition ihdr_ok (st : fs_state) : Prop := forall ih, fs_ihdr st = Some ih -> bytes_ok ih.

Lemma loop_facts o : forall fuel rest st st', bytes_ok rest -> from_slice_loop fuel o rest st = Ok st' ->
  (ihdr_ok st -> ihdr_ok st') /\ (length (fs_idat st') <= length (fs_idat st) + length rest)%nat.
Proof.
  induction fuel as [|f IH]; intros rest st st' Hb H; [discriminate|]. cbn [from_slice_loop] in H.
  destruct (parse_next_chunk rest (fix_errors o)) as [[[c rest']|]|?|?] eqn:E; cbn [bind] in H; try discriminate.
  - apply bind_Ok in H as (st1 & Es & H).
    destruct (parse_next_chunk_data _ _ _ _ Hb E) as (Hd & Hb' & Hlen).
    destruct (step_fields o st c st1 Es) as (F1 & F2 & _ & _).
    destruct (IH rest' st1 st' Hb' H) as [I1 I2]. split.
    + intros Hi. apply I1. intros ih Hih. rewrite F2 in Hih. destruct (is_name name_IHDR c); [injection Hih as <-; exact Hd|apply Hi; exact Hih].
    + rewrite F1 in I2. destruct (is_name name_IDAT c); [rewrite app_length in I2|]; lia.
  - injection H as <-. split; [auto|lia].
Qed.

Lemma legal_of_parse b plte trns hd : parse_ihdr_chunk b plte trns = Ok hd ->
  depth_legal (spec_color_of (ctype hd)) (depth hd) = true /\ 1 <= bpp hd.
Proof.
  intros H. destruct (parse_ihdr_legal _ _ _ _ H) as [Hv Hc]. apply depth_valid_cases in Hv. unfold bpp.
  (* colour type by depth: Hc refutes the pairs that are not legal, the others compute *)
  destruct (ctype hd); cbn [spec_color_of depth_legal channels_per_pixel] in *; destruct Hv as [E|[E|[E|[E|E]]]]; rewrite E in *; try lia.
  all: split; [reflexivity|lia].
Qed.

Theorem from_slice_no_panic e o bytes p :
  bytes_ok bytes -> lenZ bytes < usize_max / 1032 ->
  (forall x n q, z_inflate e x n <> Panic q) ->
  from_slice e bytes o <> Panic p.
Proof.
  intros Hok Hsmall Hz. unfold from_slice.
  destruct (length bytes <? 8)%nat; [discriminate|]. destruct (negb _); [discriminate|].
  assert (Hsk : bytes_ok (skipn 8 bytes)) by (apply bytes_ok_skipn; exact Hok).
  apply bind_no_panic.
  { intros q. apply from_slice_loop_no_panic; [exact Hsk|].
    rewrite skipn_length. assert (((length bytes - 8) / 12 <= length bytes / 12)%nat) by (apply Nat.div_le_mono; lia). lia. }
  intros st Eloop. destruct (loop_facts o _ _ _ _ Hsk Eloop) as [Hi Hl]. cbn [fs_idat fs_ihdr length] in Hi, Hl.
  specialize (Hi ltac:(intros ih [=])).
  destruct (fs_idat st) as [|i0 it] eqn:Eidat; [discriminate|].
  destruct (fs_ihdr st) as [ih|] eqn:Eih; [|discriminate].
  apply bind_no_panic; [intros q; apply parse_ihdr_no_panic|]. intros hd Ehd. apply bind_no_panic; [|discriminate]. intros q.
  destruct (legal_of_parse _ _ _ _ Ehd) as [Hlegal Hb]. destruct (parse_ihdr_fields _ _ _ _ Ehd) as (Ew & Eh & _).
  pose proof (Hi ih Eih) as Hihok.
  apply png_image_new_no_panic; auto.
  - rewrite Ew. apply be32_of_nonneg. exact Hihok.
  - rewrite Eh. apply be32_of_nonneg. apply bytes_ok_skipn. exact Hihok.
  - rewrite skipn_length in Hl. unfold lenZ in *. lia.
Qed.
