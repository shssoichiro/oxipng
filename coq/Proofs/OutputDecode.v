(* The bytes written by PngData::output, decoded by the SPECIFICATION's whole-file decoder (Spec/DecodeFile.v): strict container
   parse, IHDR fields, colour interpretation from PLTE/tRNS, the IDAT payload inflated, reconstruction and meaning of the stream.
   Result: they decode to whatever the specification makes of the inflated IDAT content under the header of the written image. *)
From OxiVerif Require Import Base.Common Base.ListFacts Spec.Decode Spec.DecodeFile Model.Types Model.Options Model.Headers Model.PngData
  Proofs.Bridge Proofs.OutputProofs.
Local Open Scope Z_scope.

Lemma triples_flat (pal : list rgba8) :
  triples (flat_map (fun c : rgba8 => let '(r, g, b, _) := c in [r; g; b]) pal) = map (fun c : rgba8 => let '(r, g, b, _) := c in (r, g, b)) pal.
Proof. induction pal as [|[[[r g] b] a] t IH]; cbn [flat_map map triples app]; [reflexivity|]. rewrite IH. reflexivity. Qed.

Lemma rposition_alpha_spec (pal : list rgba8) : forall i last,
  match rposition_alpha pal i last with
  | Some k => (exists j, (j < length pal)%nat /\ k = i + Z.of_nat j /\
                         Forall (fun c : rgba8 => let '(_, _, _, a) := c in a = 255) (skipn (S j) pal)) \/
              (last = Some k /\ Forall (fun c : rgba8 => let '(_, _, _, a) := c in a = 255) pal)
  | None => last = None /\ Forall (fun c : rgba8 => let '(_, _, _, a) := c in a = 255) pal
  end.
Proof.
  induction pal as [|[[[r g] b] a] t IH]; intros i last; cbn [rposition_alpha].
  - destruct last as [k|]; [right|]; split; auto.
  - specialize (IH (i + 1) (if a =? 255 then last else Some i)).
    destruct (rposition_alpha t (i + 1) (if a =? 255 then last else Some i)) as [k|].
    + destruct IH as [(j & Hj & Hk & HF)|[Hl HF]].
      * left. exists (S j). split; [cbn; lia|]. split; [lia|exact HF].
      * destruct (Z.eqb_spec a 255) as [->|Hne].
        -- right. split; [exact Hl|constructor; auto].
        -- injection Hl as <-. left. exists 0%nat. split; [cbn; lia|]. split; [lia|exact HF].
    + destruct IH as [Hl HF]. destruct (Z.eqb_spec a 255) as [->|Hne]; [|discriminate]. split; [exact Hl|constructor; auto].
Qed.

(* tRNS may stop after the last entry that is not opaque: the entries it does not cover read as opaque *)
Lemma with_alpha_prefix (pal : list rgba8) : forall n, Forall (fun c : rgba8 => let '(_, _, _, a) := c in a = 255) (skipn n pal) ->
  with_alpha (map (fun c : rgba8 => let '(r, g, b, _) := c in (r, g, b)) pal) (map (fun c : rgba8 => let '(_, _, _, a) := c in a) (firstn n pal)) = pal.
Proof.
  induction pal as [|[[[r g] b] a] t IH]; intros n H; [destruct n; reflexivity|].
  destruct n as [|n]; cbn [firstn map with_alpha skipn] in *.
  - inversion H as [|? ? Ha Ht]; subst. apply f_equal, (IH 0%nat Ht).
  - rewrite IH by exact H. reflexivity.
Qed.

Lemma be16s_to_be16 t rest : 0 <= t < 65536 -> be16s (to_be16 t ++ rest) = t :: be16s rest.
Proof. intros H. unfold to_be16. cbn [app be16s]. f_equal. Z.div_mod_to_equations. lia. Qed.

(* well-formed for writing: what the header fields and the key must satisfy to be encodable (true of every image oxipng holds) *)
Definition writable (hd : ihdr) : Prop :=
  0 <= width hd < 2 ^ 32 /\ 0 <= height hd < 2 ^ 32 /\
  match ctype hd with
  | Gray (Some k) => 0 <= k < 65536
  | RGB (Some (r, g, b)) => 0 <= r < 65536 /\ 0 <= g < 65536 /\ 0 <= b < 65536
  | _ => True
  end.

Definition not_key (c : cname * list Z) : Prop := named spec_PLTE c = false /\ named spec_tRNS c = false /\ named spec_IDAT c = false.

(* PLTE and tRNS are looked up by name: anything around the key chunks that bears neither name is skipped *)
Definition not_pt (c : cname * list Z) : Prop := named spec_PLTE c = false /\ named spec_tRNS c = false.

Lemma color_of_key_chunks hd pre rest : writable hd -> Forall not_pt pre -> Forall not_pt rest ->
  spec_color_of_chunks (png_header_code (ctype hd)) (pre ++ key_chunks hd ++ rest) = Some (spec_color_of (ctype hd)).
Proof.
  intros (_ & _ & Hk) Hpre Hrest. unfold spec_color_of_chunks.
  destruct (Forall_and_inv _ _ Hpre) as [PP PT]. destruct (Forall_and_inv _ _ Hrest) as [RP RT].
  rewrite !find_app, (find_none_forall (named spec_PLTE) _ PP), (find_none_forall (named spec_tRNS) _ PT),
    (find_none_forall (named spec_PLTE) _ RP), (find_none_forall (named spec_tRNS) _ RT).
  assert (T1 : forall d : list Z, named spec_tRNS (name_tRNS, d) = true) by reflexivity.
  assert (T2 : forall d : list Z, named spec_PLTE (name_tRNS, d) = false) by reflexivity.
  assert (T3 : forall d : list Z, named spec_PLTE (name_PLTE, d) = true) by reflexivity.
  assert (T4 : forall d : list Z, named spec_tRNS (name_PLTE, d) = false) by reflexivity.
  unfold key_chunks. destruct (ctype hd) as [[k|]|[[[r g] b]|]|pal| |]; cbn [png_header_code spec_color_of find]; rewrite ?T1, ?T2, ?T3, ?T4; cbn [find]; try reflexivity.
  - rewrite (be16s_to_be16 k [] Hk : be16s (to_be16 k) = [k]). reflexivity.
  - destruct Hk as (Hr & Hg & Hb). rewrite 2 be16s_to_be16, (be16s_to_be16 b [] Hb : be16s (to_be16 b) = [b]) by assumption. reflexivity.
  - pose proof (rposition_alpha_spec pal 0 None) as RS.
    destruct (rposition_alpha pal 0 None) as [last|]; cbn [find app]; rewrite ?T1, ?T2, ?T3, ?T4; cbn [find]; rewrite triples_flat.
    + destruct RS as [(j & Hj & Hk2 & HF)|[Hl _]]; [|discriminate].
      rewrite Hk2, Z.add_0_l. replace (Z.to_nat (Z.of_nat j + 1)) with (S j) by lia. rewrite with_alpha_prefix by exact HF. reflexivity.
    + destruct RS as [_ HF]. rewrite (with_alpha_prefix pal 0 HF : with_alpha _ [] = pal). reflexivity.
Qed.

(* the ancillary part of what `output` writes: everything except IHDR, the key chunks, the IDAT it writes itself and IEND *)
Definition aux_written (p : pngdata) : list (cname * list Z) :=
  let parts := split_idat (aux_chunks p) [] in
  let aux_pre := match parts with x :: _ => x | [] => [] end in
  map as_pair (List.filter (fun c => negb (after_plte c)) aux_pre) ++ map as_pair (List.filter (write_special (hdr (raw p))) aux_pre)
  ++ output_post p.

(* how the specification reads the IHDR chunk that `output` writes: the five fields come back *)
Lemma decode_written_ihdr inflate hd rest : 0 <= width hd < 2 ^ 32 -> 0 <= height hd < 2 ^ 32 ->
  spec_decode_chunks inflate ((name_IHDR, to_be32 (width hd) ++ to_be32 (height hd) ++
                                          [depth hd; png_header_code (ctype hd); 0; 0; if interlaced hd then 1 else 0]) :: rest) =
  match spec_color_of_chunks (png_header_code (ctype hd)) rest with
  | Some c => match inflate (flat_map snd (List.filter (named spec_IDAT) rest)) with
              | Some stream => spec_decode_stream (width hd) (height hd) c (depth hd) (interlaced hd) stream
              | None => None
              end
  | None => None
  end.
Proof.
  intros Hw Hh. unfold spec_decode_chunks.
  set (ih := to_be32 (width hd) ++ to_be32 (height hd) ++ [depth hd; png_header_code (ctype hd); 0; 0; if interlaced hd then 1 else 0]).
  change (list_eqb Z.eqb name_IHDR spec_IHDR && (length ih =? 13)%nat) with true.
  change (nth 8 ih 0) with (depth hd). change (nth 9 ih 0) with (png_header_code (ctype hd)).
  change (nth 10 ih 0) with 0. change (nth 11 ih 0) with 0. change (nth 12 ih 0) with (if interlaced hd then 1 else 0).
  change (skipn 4 ih) with (to_be32 (height hd) ++ skipn 8 ih). unfold ih. rewrite !sbe32_to_be32 by assumption.
  destruct (interlaced hd); reflexivity.
Qed.

Theorem output_decodes (inflate : list Z -> option (list Z)) (p : pngdata) :
  Forall chunk_wf (output_body p) -> Forall not_iend (output_body p) ->
  writable (hdr (raw p)) -> 0 <= depth (hdr (raw p)) < 256 ->
  Forall not_key (aux_written p) ->
  spec_decode_png inflate (output p) =
  match inflate (idat_data p) with
  | Some stream => spec_decode_stream (width (hdr (raw p))) (height (hdr (raw p))) (spec_color_of (ctype (hdr (raw p))))
                                      (depth (hdr (raw p))) (interlaced (hdr (raw p))) stream
  | None => None
  end.
Proof.
  intros Hwf Hni Hwr Hd Haux. unfold spec_decode_png. rewrite (output_parses p Hwf Hni).
  destruct (output_structure p) as [Hs _]. rewrite Hs, decode_written_ihdr by apply Hwr.
  set (hd := hdr (raw p)) in *.
  unfold aux_written in Haux. cbn zeta in Haux. apply Forall_app in Haux. destruct Haux as [HA Haux]. apply Forall_app in Haux. destruct Haux as [HS HP].
  unfold output_pre. cbn zeta. fold hd.
  set (A := map as_pair (List.filter (fun c => negb (after_plte c)) match split_idat (aux_chunks p) [] with x :: _ => x | [] => [] end)) in *.
  set (S := map as_pair (List.filter (write_special hd) match split_idat (aux_chunks p) [] with x :: _ => x | [] => [] end)) in *.
  assert (PT : forall l, Forall not_key l -> Forall not_pt l) by (intros l; apply Forall_impl; unfold not_key, not_pt; tauto).
  rewrite <- !app_assoc.
  rewrite (color_of_key_chunks hd A (S ++ [(name_IDAT, idat_data p)] ++ output_post p ++ [(name_IEND, [])]) Hwr (PT A HA))
    by (apply Forall_app; split; [exact (PT _ HS)|constructor; [split; reflexivity|apply Forall_app; split; [exact (PT _ HP)|repeat constructor]]]).
  assert (Eidat : List.filter (named spec_IDAT) (A ++ key_chunks hd ++ S ++ [(name_IDAT, idat_data p)] ++ output_post p ++ [(name_IEND, [])])
                  = [(name_IDAT, idat_data p)]).
  { assert (NI : forall l, Forall not_key l -> List.filter (named spec_IDAT) l = []) by (intros l Hl; apply filter_none; eapply Forall_impl; [|exact Hl]; intros c Hc; apply Hc).
    assert (NK : List.filter (named spec_IDAT) (key_chunks hd) = []).
    { unfold key_chunks. destruct (ctype hd) as [[k|]|[[[r g] b]|]|pal| |]; try reflexivity. destruct (rposition_alpha pal 0 None); reflexivity. }
    rewrite !filter_app. unfold cname in *. rewrite (NI A HA), NK, (NI S HS), (NI (output_post p) HP). reflexivity. }
  rewrite Eidat. cbn [flat_map snd app]. rewrite app_nil_r. reflexivity.
Qed.
