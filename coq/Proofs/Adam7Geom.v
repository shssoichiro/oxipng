(* Facts about the Adam7 tables of Spec/Adam7.v alone: the range of the pass constants, the arithmetic of
   "x mod d = r" and of the rounded-up quotient over an arbitrary step d, the pass dimensions pw, ph, and the agreement
   of the 8x8 pass matrix with the start/step table (which pass a pixel belongs to, and where it sits in it). *)
From OxiVerif Require Import Base.Common Spec.Adam7.

Lemma passes7_range p : In p passes7 <-> 1 <= p <= 7.
Proof. unfold passes7. cbn. lia. Qed.

Lemma passes7_cases p : In p passes7 -> p = 1 \/ p = 2 \/ p = 3 \/ p = 4 \/ p = 5 \/ p = 6 \/ p = 7.
Proof. rewrite passes7_range. lia. Qed.

Lemma passes7_nodup : NoDup passes7.
Proof. unfold passes7. repeat constructor; cbn; lia. Qed.

Definition pow8 (d : Z) : Prop := d = 1 \/ d = 2 \/ d = 4 \/ d = 8.

Lemma pass_consts p : In p passes7 -> pow8 (dx p) /\ 0 <= x0 p < dx p /\ pow8 (dy p) /\ 0 <= y0 p < dy p.
Proof. intros Hp. unfold pow8. destruct (passes7_cases p Hp) as [->|[->|[->|[->|[->|[->| ->]]]]]]; cbn; lia. Qed.

Lemma mod_decomp d r v : 0 < d -> 0 <= v -> v mod d = r -> 0 <= (v - r) / d /\ v = r + (v - r) / d * d /\ r <= v.
Proof.
  intros Hd Hv <-. pose proof (Z.div_mod v d ltac:(lia)) as E. pose proof (Z.div_pos v d Hv Hd) as Hq.
  replace (v - v mod d) with (v / d * d) by lia. rewrite Z.div_mul by lia. nia.
Qed.

Lemma mod_of_decomp d r k : 0 <= r < d -> (r + k * d) mod d = r /\ (r + k * d - r) / d = k.
Proof.
  intros Hr. split; [rewrite Z.mod_add, Z.mod_small by lia; reflexivity|].
  replace (r + k * d - r) with (k * d) by lia. apply Z.div_mul. lia.
Qed.

Lemma mod_eq_sub d r i : 0 <= r < d -> (i mod d = r <-> (r - i) mod d = 0).
Proof.
  intros Hr. split; intros E.
  - rewrite <- E, Zminus_mod_idemp_l, Z.sub_diag. apply Z.mod_0_l. lia.
  - apply Z.mod_divide in E; [|lia]. destruct E as [q E].
    replace i with (r + - q * d) by lia. apply mod_of_decomp, Hr.
Qed.

Lemma mod_pred d a : 0 < d -> (a - 1) mod d = if a mod d =? 0 then d - 1 else a mod d - 1.
Proof.
  intros Hd. pose proof (Z.div_mod a d ltac:(lia)) as E. pose proof (Z.mod_pos_bound a d Hd) as B.
  symmetry. destruct (Z.eqb_spec (a mod d) 0) as [E0|E0].
  - apply (Z.mod_unique _ _ (a / d - 1)); lia.
  - apply (Z.mod_unique _ _ (a / d)); lia.
Qed.

Lemma cdiv_gt d a j : 0 < d -> (j < cdiv a d <-> j * d < a).
Proof. intros Hd. unfold cdiv. Z.div_mod_to_equations. nia. Qed.

Lemma cdiv_step d a : 0 < d -> cdiv (a + d) d = cdiv a d + 1.
Proof.
  intros Hd. unfold cdiv. replace (a + d + d - 1) with (a + d - 1 + 1 * d) by lia. apply Z.div_add. lia.
Qed.

Lemma idx_lt d a v : 0 < d -> 0 <= v < a -> v / d < cdiv a d.
Proof. intros Hd Hv. apply cdiv_gt; [exact Hd|]. pose proof (Z.mul_div_le v d Hd). lia. Qed.

Lemma pw_active w p : x0 p < w -> pw w p = cdiv (w - x0 p) (dx p).
Proof. intros H. unfold pw. destruct (Z.leb_spec w (x0 p)); [lia|reflexivity]. Qed.
Lemma ph_active h p : y0 p < h -> ph h p = cdiv (h - y0 p) (dy p).
Proof. intros H. unfold ph. destruct (Z.leb_spec h (y0 p)); [lia|reflexivity]. Qed.

(* for every p: outside 1..7 the tables give step 1 *)
Lemma dx_dy_pos p : 0 < dx p /\ 0 < dy p.
Proof. unfold dx, dy. destruct p as [|[[[q|q|]|[q|q|]|]|[[q|q|]|[q|q|]|]|]|q]; lia. Qed.

Lemma pw_pos w p : 0 < pw w p <-> x0 p < w.
Proof. unfold pw. destruct (Z.leb_spec w (x0 p)); [lia|]. pose proof (cdiv_gt (dx p) (w - x0 p) 0 (proj1 (dx_dy_pos p))). lia. Qed.
Lemma ph_pos h p : 0 < ph h p <-> y0 p < h.
Proof. unfold ph. destruct (Z.leb_spec h (y0 p)); [lia|]. pose proof (cdiv_gt (dy p) (h - y0 p) 0 (proj2 (dx_dy_pos p))). lia. Qed.

Lemma pw_nonneg w p : 0 <= pw w p.
Proof. unfold pw. destruct (Z.leb_spec w (x0 p)); [lia|]. pose proof (cdiv_gt (dx p) (w - x0 p) 0 (proj1 (dx_dy_pos p))). lia. Qed.
Lemma ph_nonneg h p : 0 <= ph h p.
Proof. unfold ph. destruct (Z.leb_spec h (y0 p)); [lia|]. pose proof (cdiv_gt (dy p) (h - y0 p) 0 (proj2 (dx_dy_pos p))). lia. Qed.

(* the 8x8 matrix against the start/step table, residue by residue *)
Definition r8 := [0;1;2;3;4;5;6;7].

Lemma pass_of_table : forallb (fun p => forallb (fun b => forallb (fun a =>
    Bool.eqb (pass_of a b =? p) ((b mod dy p =? y0 p) && (a mod dx p =? x0 p))) r8) r8) passes7 = true.
Proof. vm_compute. reflexivity. Qed.

Lemma pass_range_table : forallb (fun b => forallb (fun a => (1 <=? pass_of a b) && (pass_of a b <=? 7)) r8) r8 = true.
Proof. vm_compute. reflexivity. Qed.

Lemma r8_all (f : Z -> bool) a : forallb f r8 = true -> f (a mod 8) = true.
Proof.
  intros T. rewrite forallb_forall in T. apply T. pose proof (Z.mod_pos_bound a 8 eq_refl) as B. revert B.
  generalize (a mod 8) as v. intros v B. unfold r8.
  assert (v=0\/v=1\/v=2\/v=3\/v=4\/v=5\/v=6\/v=7) as [->|[->|[->|[->|[->|[->|[->| ->]]]]]]] by lia; simpl; tauto.
Qed.

Lemma mod_mod_8 d a : pow8 d -> a mod d = (a mod 8) mod d.
Proof. intros [->|[->|[->| ->]]]; Z.div_mod_to_equations; lia. Qed.

Lemma pass_of_mod8 x y : pass_of (x mod 8) (y mod 8) = pass_of x y.
Proof. unfold pass_of. rewrite !Z.mod_mod by lia. reflexivity. Qed.

Lemma pass_of_spec p x y : In p passes7 -> (pass_of x y =? p) = row_in p y && col_in p x.
Proof.
  intros Hp. destruct (pass_consts p Hp) as (Hdx & _ & Hdy & _).
  pose proof pass_of_table as T. rewrite forallb_forall in T.
  pose proof (r8_all _ x (r8_all _ y (T p Hp))) as E. apply eqb_prop in E. rewrite pass_of_mod8 in E. rewrite E. unfold row_in, col_in.
  rewrite <- (mod_mod_8 (dy p) y Hdy), <- (mod_mod_8 (dx p) x Hdx). reflexivity.
Qed.

Lemma pass_of_iff p x y : In p passes7 -> (pass_of x y = p <-> row_in p y = true /\ col_in p x = true).
Proof. intros Hp. rewrite <- andb_true_iff, <- pass_of_spec by exact Hp. symmetry. apply Z.eqb_eq. Qed.

Lemma pass_of_range x y : In (pass_of x y) passes7 /\ row_in (pass_of x y) y = true /\ col_in (pass_of x y) x = true.
Proof.
  assert (Hin : In (pass_of x y) passes7).
  { pose proof (r8_all _ x (r8_all _ y pass_range_table)) as T. cbv beta in T. rewrite pass_of_mod8 in T. apply passes7_range. lia. }
  split; [exact Hin|]. apply (pass_of_iff _ x y Hin). reflexivity.
Qed.

Lemma col_in_decomp p x : In p passes7 -> 0 <= x -> col_in p x = true ->
  0 <= (x - x0 p) / dx p /\ x = x0 p + (x - x0 p) / dx p * dx p /\ x0 p <= x.
Proof.
  intros Hp Hx E. destruct (pass_consts p Hp) as (_ & Hr & _). apply Z.eqb_eq in E. apply mod_decomp; [lia|exact Hx|exact E].
Qed.
Lemma row_in_decomp p y : In p passes7 -> 0 <= y -> row_in p y = true ->
  0 <= (y - y0 p) / dy p /\ y = y0 p + (y - y0 p) / dy p * dy p /\ y0 p <= y.
Proof.
  intros Hp Hy E. destruct (pass_consts p Hp) as (_ & _ & _ & Hr). apply Z.eqb_eq in E. apply mod_decomp; [lia|exact Hy|exact E].
Qed.
