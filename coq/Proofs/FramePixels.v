(* C10, frame pixels: recompress_frames replaces the data of a frame only by the compression of a stream that the specification
   decodes (frame dimensions, the image's colour type, depth and interlacing) to the same picture as the frame's old data;
   with alpha optimisation to an alpha-equivalent one. *)
From OxiVerif Require Import Base.Common Base.ListFacts Spec.Adam7 Spec.Sem Spec.Decode Model.Types Model.Options Model.Headers Model.PngData
  Model.Optimize Proofs.Bridge Proofs.LiftReductions Proofs.LiftColor Proofs.LiftAlpha Proofs.AlphaStream Proofs.UnfilterImage Proofs.InputParse
  Proofs.FramesIndependent.
Local Open Scope Z_scope.

(* what a frame shows: the specification's decoding of its inflated data under the frame's dimensions and the image's pixel format *)
Definition frame_picture (inflate : list Z -> option (list Z)) (hd : ihdr) (fr : frame) : option picture :=
  match inflate (f_data fr) with
  | Some stream => spec_decode_stream (f_width fr) (f_height fr) (spec_color_of (ctype hd)) (depth hd) (interlaced hd) stream
  | None => None
  end.

Definition frame_same (alpha : bool) (p q : option picture) : Prop :=
  match p with
  | Some pic => exists pic', q = Some pic' /\ (if alpha then pic_aequiv pic pic' else pic' = pic)
  | None => True
  end.

Lemma frame_same_refl alpha x : frame_same alpha x x.
Proof. destruct x as [pic|]; cbn; [|exact I]. exists pic. split; [reflexivity|]. destruct alpha; [apply pic_aequiv_refl|reflexivity]. Qed.

Section FP.
Variable e : env.
Variable inflate : list Z -> option (list Z).
Hypothesis Hz : forall x n y, z_inflate e x n = Ok y -> inflate x = Some y /\ bytes_ok y.
Hypothesis Hzd : forall d s, inflate (z_deflate e d s) = Some s.

Theorem frame_result_pixels o hd f i fr fr' : wf_ctype (ctype hd) (depth hd) ->
  spec_raw_size (f_width fr) (f_height fr) (bpp hd) (interlaced hd) true <= usize_max ->
  frame_result e o hd f i fr = Ok fr' ->
  frame_same (optimize_alpha o) (frame_picture inflate hd fr) (frame_picture inflate hd fr').
Proof.
  intros Hwfc Hsz1 E1. unfold frame_result in E1.
  destruct (dl e (SFrame i)); [injection E1 as <-; apply frame_same_refl|].
  apply bind_Ok in E1 as (img & Eimg & E1). apply bind_Ok in E1 as (flt & Ef & E1). unfold deflate_capped in E1.
  destruct (lenZ (f_data fr) - 1 <? lenZ (z_deflate e (deflate o) flt)); injection E1 as <-; [apply frame_same_refl|].
  (* the frame was re-encoded *)
  unfold frame_picture. cbn [with_fdata f_data f_width f_height]. rewrite Hzd.
  destruct (inflate (f_data fr)) as [stream|] eqn:Einf; [|exact I].
  destruct (spec_decode_stream (f_width fr) (f_height fr) (spec_color_of (ctype hd)) (depth hd) (interlaced hd) stream) as [pic|] eqn:Edec; [|exact I].
  cbn [frame_same].
  destruct (spec_decode_stream_some _ _ _ _ _ _ _ Edec) as (Pw & Ph & Pb & Pl).
  set (hdf := with_dims hd (f_width fr) (f_height fr)) in *.
  rewrite spec_channels_of in Pb.
  destruct (png_image_new_sem e hdf (f_data fr) img Eimg Pl ltac:(unfold bpp; cbn; lia) Hsz1 ltac:(cbn; lia) ltac:(cbn; lia) (fun x n y Hy => proj2 (Hz x n y Hy)))
    as (stream0 & Ez & Hhdr & Hdok & _ & Hsem).
  destruct (Hz _ _ _ Ez) as [Hinf0 _]. rewrite Einf in Hinf0. injection Hinf0 as <-.
  cbn [hdf with_dims width height ctype depth interlaced] in Hsem. rewrite Edec in Hsem.
  assert (Hwf : wf img) by (split; [exact Hdok|rewrite Hhdr; exact Hwfc]).
  assert (Edims : width (hdr img) = f_width fr /\ height (hdr img) = f_height fr /\ ctype (hdr img) = ctype hd /\ depth (hdr img) = depth hd /\ interlaced (hdr img) = interlaced hd)
    by (rewrite Hhdr; repeat split).
  destruct Edims as (D1 & D2 & D3 & D4 & D5).
  destruct (filter_image_decodes_aequiv _ _ _ _ _ _ Hwf Hsem Ef) as (pic2 & E2' & A2 & Ex). rewrite D1, D2, D3, D4, D5 in E2'.
  destruct (optimize_alpha o); [eauto|]. rewrite (Ex eq_refl) in E2'. eauto.
Qed.

Theorem recompress_frames_pixels o hd f : wf_ctype (ctype hd) (depth hd) ->
  forall i fs fs', recompress_frames_go e o hd f i fs = Ok fs' ->
  Forall (fun fr => spec_raw_size (f_width fr) (f_height fr) (bpp hd) (interlaced hd) true <= usize_max) fs ->
  Forall2 (fun a b => frame_same (optimize_alpha o) (frame_picture inflate hd a) (frame_picture inflate hd b)) fs fs'.
Proof.
  intros Hwfc i fs fs' H Hsz. apply (Forall2_strengthen _ (fun a b => exists k, frame_result e o hd f k a = Ok b) _ _ _ Hsz).
  - exact (recompress_frames_each e o hd f _ (fun k fr fr' E => ex_intro _ k E) i fs fs' H).
  - intros a b Ha [k E]. exact (frame_result_pixels o hd f k a b Hwfc Ha E).
Qed.
End FP.

Theorem recompress_frames_top_pixels e inflate o p f fs' :
  (forall x n y, z_inflate e x n = Ok y -> inflate x = Some y /\ bytes_ok y) ->
  (forall d s, inflate (z_deflate e d s) = Some s) ->
  wf_ctype (ctype (hdr (raw p))) (depth (hdr (raw p))) ->
  Forall (fun fr => spec_raw_size (f_width fr) (f_height fr) (bpp (hdr (raw p))) (interlaced (hdr (raw p))) true <= usize_max) (frames p) ->
  recompress_frames e o p f = Ok fs' ->
  Forall2 (fun a b => frame_same (optimize_alpha o) (frame_picture inflate (hdr (raw p)) a) (frame_picture inflate (hdr (raw p)) b)) (frames p) fs'.
Proof.
  intros Hz Hzd Hwf Hsz H. unfold recompress_frames in H.
  destruct (negb (idat_recoding o)); [injection H as <-; apply Forall2_same; intros a; apply frame_same_refl|].
  destruct (frames p) as [|fr t] eqn:E; [injection H as <-; constructor|].
  eapply recompress_frames_pixels; eauto.
Qed.
