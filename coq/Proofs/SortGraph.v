(* Sequences and the edge sort, for both co-occurrence sorters. A sequence with values of two kinds has an adjacent pair of both kinds
   (consecutive pixels in scan order make the co-occurrence graph of the used indices connected: mzeng); the stable insertion sort puts a
   minimal key, hence a heaviest edge, first (mzeng); edge_list is what weighted_edges sorts, with its membership (mzeng and battiato). *)
From OxiVerif Require Import Base.Common Model.Palette.
From OxiVerif Require Import Proofs.CoocMatrix.
Local Open Scope Z_scope.

(* Walking from an element of one kind to an element of the other kind crosses an adjacent pair of both kinds. *)
Lemma first_change (P Q : Z -> Prop) : forall vs v, P v -> (forall u, In u vs -> P u \/ Q u) -> (exists b, In b vs /\ Q b) ->
  exists x y, adjacent x y (v :: vs) /\ P x /\ Q y.
Proof.
  induction vs as [|w t IH]; intros v Pv Hall (b & Ib & Qb); [destruct Ib|].
  destruct (Hall w (or_introl eq_refl)) as [Pw|Qw]; [|exists v, w; split; [exists [], t; reflexivity|split; assumption]].
  destruct Ib as [<-|Ib]; [exists v, w; split; [exists [], t; reflexivity|split; assumption]|].
  destruct (IH w Pw (fun u Hu => Hall u (or_intror Hu)) (ex_intro _ b (conj Ib Qb))) as (x & y & (l1 & l2 & E) & Pxy).
  exists x, y. split; [exists (v :: l1), l2; rewrite E; reflexivity|exact Pxy].
Qed.

Lemma seq_connect (PA PB : Z -> Prop) : (forall v, PA v -> PB v -> False) -> forall vs,
  (forall v, In v vs -> PA v \/ PB v) -> (exists a, In a vs /\ PA a) -> (exists b, In b vs /\ PB b) ->
  exists x y, adjacent x y vs /\ ((PA x /\ PB y) \/ (PB x /\ PA y)).
Proof.
  intros Hdis [|v t] Hall (a & Ia & Pa) (b & Ib & Pb); [destruct Ia|].
  pose proof (fun u Hu => Hall u (or_intror Hu)) as Ht.
  destruct (Hall v (or_introl eq_refl)) as [Pv|Pv].
  - destruct Ib as [<-|Ib]; [exfalso; eauto|].
    destruct (first_change PA PB t v Pv Ht (ex_intro _ b (conj Ib Pb))) as (x & y & Hxy & C). exists x, y. auto.
  - destruct Ia as [<-|Ia]; [exfalso; eauto|].
    destruct (first_change PB PA t v Pv) as (x & y & Hxy & C); [intros u Hu; destruct (Ht u Hu); auto|exists a; auto|]. exists x, y. auto.
Qed.

(* first_change from the head a, for "equal to a" and "different from a" *)
Lemma adjacent_distinct_or_const (l : list Z) : (exists a b, adjacent a b l /\ a <> b) \/ (forall x y, In x l -> In y l -> x = y).
Proof.
  destruct l as [|a t]; [right; intros x y []|].
  destruct (Forall_Exists_dec (eq a) (Z.eq_dec a) t) as [Hall|Hex].
  - right. rewrite Forall_forall in Hall.
    assert (E : forall x, In x (a :: t) -> a = x) by (intros x [Hx|Hx]; [exact Hx|exact (Hall x Hx)]).
    intros x y Hx Hy. rewrite <- (E x Hx). exact (E y Hy).
  - left. apply Exists_exists in Hex.
    destruct (first_change (eq a) (fun u => a <> u) t a eq_refl) as (x & y & Hxy & <- & Hy); [intros u _; destruct (Z.eq_dec a u); auto|exact Hex|].
    exists a, y. split; assumption.
Qed.

Section Sort.
Context {A : Type}.
Variable key : A -> Z.

Lemma insert_sorted_in x l y : In y (insert_sorted key x l) <-> In y (x :: l).
Proof.
  induction l as [|a t IH]; cbn [insert_sorted]; [tauto|].
  destruct (key x <=? key a); cbn [In] in *; [tauto|]. rewrite IH. tauto.
Qed.

Lemma stable_sort_in l y : In y (stable_sort key l) <-> In y l.
Proof.
  unfold stable_sort. induction l as [|a t IH]; cbn [fold_right]; [tauto|]. rewrite insert_sorted_in. cbn [In]. rewrite IH. reflexivity.
Qed.

Definition head_min (l : list A) : Prop := match l with [] => True | h :: t => forall x, In x t -> key h <= key x end.

Lemma insert_sorted_head_min x l : head_min l -> head_min (insert_sorted key x l).
Proof.
  destruct l as [|a t]; cbn [insert_sorted head_min]; [intros _ y []|]. intros Ha.
  destruct (Z.leb_spec (key x) (key a)); cbn [head_min].
  - intros y [<-|Hy]; [assumption|]. specialize (Ha y Hy). lia.
  - intros y Hy. apply insert_sorted_in in Hy. destruct Hy as [<-|Hy]; [lia|apply Ha; exact Hy].
Qed.

Lemma stable_sort_head_min l : head_min (stable_sort key l).
Proof. unfold stable_sort. induction l as [|a t IH]; cbn [fold_right]; [exact I|apply insert_sorted_head_min; exact IH]. Qed.

Lemma stable_sort_head l h t : stable_sort key l = h :: t -> In h l /\ forall x, In x l -> key h <= key x.
Proof.
  intros E. pose proof (stable_sort_head_min l) as M. rewrite E in M. split.
  - apply stable_sort_in. rewrite E. left. reflexivity.
  - intros x Hx. apply stable_sort_in in Hx. rewrite E in Hx. destruct Hx as [<-|Hx]; [lia|apply M; exact Hx].
Qed.
End Sort.

Definition edge_list (m : matrix) : list (Z * Z * Z) :=
  flat_map (fun i => map (fun j => ((Z.of_nat j, Z.of_nat i), mget m (Z.of_nat i) (Z.of_nat j))) (seq 0 i)) (seq 0 (length m)).

Lemma edge_list_in m j i w : In ((j, i), w) (edge_list m) <-> 0 <= j < i /\ i < lenZ m /\ w = mget m i j.
Proof.
  unfold edge_list, lenZ. rewrite in_flat_map. split.
  - intros (inn & Hi & Hj). apply in_seq in Hi. apply in_map_iff in Hj. destruct Hj as (jn & [= <- <- <-] & Hjn). apply in_seq in Hjn. lia.
  - intros (Hj & Hi & ->). exists (Z.to_nat i). split; [apply in_seq; lia|]. apply in_map_iff. exists (Z.to_nat j).
    split; [rewrite !Z2Nat.id by lia; reflexivity|apply in_seq; lia].
Qed.

Lemma weighted_edges_head m e0 e1 rest : weighted_edges m = (e0, e1) :: rest ->
  0 <= e0 < e1 /\ e1 < lenZ m /\ forall j i, 0 <= j < i -> i < lenZ m -> mget m i j <= mget m e1 e0.
Proof.
  unfold weighted_edges. fold (edge_list m). intros E.
  destruct (stable_sort (fun e : Z * Z * Z => - snd e) (edge_list m)) as [|[[a b] w] t] eqn:Es; [discriminate|].
  cbn [map fst] in E. injection E as -> -> _.
  destruct (stable_sort_head _ _ _ _ Es) as [Hin Hmin]. apply edge_list_in in Hin. destruct Hin as (H0 & H1 & ->).
  split; [exact H0|]. split; [exact H1|]. intros j i Hj Hi.
  specialize (Hmin ((j, i), mget m i j)). cbn [snd] in Hmin. rewrite edge_list_in in Hmin. lia.
Qed.
