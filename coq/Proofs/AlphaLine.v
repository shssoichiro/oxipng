(* optimize_alpha on one scan line: the rewritten line has the same length, consists of bytes, and differs from the line only in
   the colour bytes of fully transparent pixels (alpha bytes all zero); C03 for the filter stage. *)
From OxiVerif Require Import Base.Common Base.ListFacts Model.Filters Proofs.FilterProofs.

Section AL.
Variable bpp cb : nat.           (* bytes per pixel, colour bytes (bpp - alpha bytes) *)
Hypothesis Hcb : (cb <= bpp)%nat.
Hypothesis Hbpp : (0 < bpp)%nat.

Definition px_rel (px px' : list Z) : Prop :=
  px' = px \/ (all_zero (skipn cb px) = true /\ skipn cb px' = skipn cb px /\ length px' = length px /\ bytes_ok px').

Lemma px_rel_refl px : px_rel px px.
Proof. left. reflexivity. Qed.

Lemma px_rel_trans a b c : px_rel a b -> px_rel b c -> px_rel a c.
Proof.
  intros [->|(Z1 & S1 & L1 & B1)]; [exact (fun H => H)|]. intros [->|(Z2 & S2 & L2 & B2)]; right; [tauto|].
  rewrite S1 in Z2. repeat split; auto; congruence.
Qed.

Lemma map4_length {A B C D E} (f : A -> B -> C -> D -> E) l1 l2 l3 l4 n :
  length l1 = n -> length l2 = n -> length l3 = n -> length l4 = n -> length (map4 f l1 l2 l3 l4) = n.
Proof.
  revert l1 l2 l3 l4. induction n as [|n IH]; intros [|a t1] [|b t2] [|c t3] [|d t4] H1 H2 H3 H4; cbn in *; try lia; try reflexivity.
  rewrite (IH t1 t2 t3 t4) by lia. reflexivity.
Qed.

Lemma bytes_ok_map4 (f : Z -> Z -> Z -> Z -> Z) l1 l2 l3 l4 : (forall a b c d, byte_ok a -> byte_ok b -> byte_ok c -> byte_ok (f a b c d)) ->
  bytes_ok l1 -> bytes_ok l2 -> bytes_ok l3 -> bytes_ok (map4 f l1 l2 l3 l4).
Proof.
  intros Hf. revert l2 l3 l4. induction l1 as [|a t IH]; intros [|b t2] [|c t3] [|d t4] H1 H2 H3; cbn [map4]; try constructor.
  - apply bytes_ok_cons in H1, H2, H3. apply Hf; tauto.
  - apply bytes_ok_cons in H1, H2, H3. apply IH; tauto.
Qed.

Definition pxok (px : list Z) : Prop := length px = bpp /\ bytes_ok px.

(* what may stand for the colour bytes of a pixel *)
Definition colok (c : list Z) : Prop := length c = cb /\ bytes_ok c.

Lemma colok_firstn p : pxok p -> colok (firstn cb p).
Proof. intros [Hl Hp]. split; [rewrite firstn_length; lia|apply bytes_ok_firstn; exact Hp]. Qed.

Lemma colok_map2 f a b : (forall x y, byte_ok x -> byte_ok y -> byte_ok (f x y)) -> colok a -> colok b -> colok (map2 f a b).
Proof. intros Hf [La Ba] [Lb Bb]. split; [rewrite map2_length; lia|apply bytes_ok_map2; assumption]. Qed.

Lemma recolour_rel px color : pxok px -> all_zero (skipn cb px) = true -> colok color ->
  let o := color ++ skipn cb px in px_rel px o /\ pxok o.
Proof.
  intros [Hl Hok] Ez [Hcl Hcok]. cbn zeta.
  assert (Hlen : length (color ++ skipn cb px) = bpp) by (rewrite app_length, skipn_length; lia).
  assert (Hbok : bytes_ok (color ++ skipn cb px)) by (apply bytes_ok_app; split; [assumption|apply bytes_ok_skipn; assumption]).
  split; [right|split; assumption]. repeat split; auto; [|lia].
  rewrite skipn_app, Hcl, Nat.sub_diag, (skipn_all2 color) by lia. reflexivity.
Qed.

(* each predictor, applied bytewise to the colour bytes of pixels, gives colour bytes *)
Lemma alpha_pixel_rel f out_prev ref0 px pp pp_prev :
  pxok px -> pxok pp -> pxok ref0 ->
  match out_prev with Some o => pxok o /\ pxok pp_prev | None => True end ->
  let o := alpha_pixel f cb out_prev ref0 px pp pp_prev in px_rel px o /\ pxok o.
Proof.
  intros Hpx Hpp Hr Hctx. cbn zeta. unfold alpha_pixel, is_transparent, alpha_part.
  destruct (all_zero (skipn cb px)) eqn:Ez; [|split; [apply px_rel_refl|exact Hpx]].
  apply recolour_rel; try assumption.
  assert (Havg : forall a b, byte_ok a -> byte_ok b -> byte_ok ((a + b) / 2)).
  { unfold byte_ok. intros a b Ha Hb. split; [apply Z.div_pos; lia|apply Z.div_lt_upper_bound; lia]. }
  destruct out_prev as [o|]; [destruct Hctx as [Ho Hq]|]; destruct f; try (apply colok_firstn; assumption).
  - apply colok_map2; [exact Havg|apply colok_firstn; assumption..].
  - destruct (colok_firstn o Ho) as [Lo Bo], (colok_firstn pp Hpp) as [Lp Bp], (colok_firstn pp_prev Hq) as [Lq Bq].
    split; [apply map4_length; assumption|apply bytes_ok_map4; try assumption].
    intros a b c d Ha Hb Hc. rewrite paeth_is_spec. apply paeth_spec_range; assumption.
  - destruct (colok_firstn pp Hpp) as [Lp Bp]. split; [rewrite map_length; exact Lp|]. apply Forall_map.
    eapply Forall_impl; [|exact Bp]. intros u Hu. rewrite <- (Z.add_0_l u). apply Havg; [unfold byte_ok; lia|exact Hu].
  - apply colok_map2; [|apply colok_firstn; assumption..]. intros a b Ha Hb. unfold byte_ok in *. lia.
Qed.

Lemma alpha_go_rel f ref0 : pxok ref0 ->
  forall pixels prevs out_prev pp_prev,
  length prevs = length pixels -> Forall pxok pixels -> Forall pxok prevs ->
  match out_prev with Some o => pxok o /\ pxok pp_prev | None => True end ->
  let out := alpha_go f cb out_prev ref0 pixels prevs pp_prev in
  Forall2 px_rel pixels out /\ Forall pxok out.
Proof.
  intros Hr. induction pixels as [|px t IH]; intros [|pp tp] out_prev pp_prev Hlen Hpx Hpp Hctx; cbn in Hlen; try lia.
  - cbn. split; constructor.
  - cbn [alpha_go]. apply Forall_cons_iff in Hpx, Hpp. destruct Hpx as [Hpx Hpx'], Hpp as [Hpp Hpp'].
    destruct (alpha_pixel_rel f out_prev ref0 px pp pp_prev Hpx Hpp Hr Hctx) as [R P].
    destruct (IH tp (Some (alpha_pixel f cb out_prev ref0 px pp pp_prev)) pp) as (R2 & F2); auto.
Qed.

Definition line_rel (data data' : list Z) : Prop :=
  length data' = length data /\ bytes_ok data' /\ Forall2 px_rel (chunks_exact bpp data) (chunks_exact bpp data').

Lemma line_rel_refl data : bytes_ok data -> line_rel data data.
Proof. intros H. split; [reflexivity|split; [assumption|]]. apply Forall2_same, px_rel_refl. Qed.

Lemma line_rel_trans a b c : line_rel a b -> line_rel b c -> line_rel a c.
Proof.
  intros (L1 & B1 & F1) (L2 & B2 & F2). split; [congruence|split; [assumption|]].
  exact (Forall2_trans _ px_rel_trans _ _ _ F1 F2).
Qed.

Lemma chunks_exact_bytes (l : list Z) : bytes_ok l -> Forall pxok (chunks_exact bpp l).
Proof.
  intros H. apply Forall_forall. intros px Hpx. split.
  - exact (proj1 (Forall_forall _ _) (chunks_exact_lengths bpp l) px Hpx).
  - exact (bytes_ok_chunk bpp l px H Hpx).
Qed.

Lemma optimize_alpha_line_rel f data prev k :
  length data = (k * bpp)%nat -> length prev = length data -> bytes_ok data -> bytes_ok prev -> (1 <= k)%nat ->
  line_rel data (optimize_alpha_line f bpp data prev cb).
Proof.
  intros Hl Hlp Hd Hp Hk.
  destruct (chunks_exact_spec bpp data k ltac:(lia) Hl) as (C1 & C2 & C3).
  destruct (chunks_exact_spec bpp prev k ltac:(lia) ltac:(lia)) as (P1 & P2 & P3).
  unfold optimize_alpha_line.
  set (ref0 := match chunks_exact bpp data with [] => [] | _ :: _ => _ end).
  assert (Hr : pxok ref0).
  { pose proof (chunks_exact_bytes data Hd) as F. rewrite Forall_forall in F. apply F.
    unfold ref0. destruct (chunks_exact bpp data) as [|p0 t]; [cbn in C3; lia|].
    destruct (find_index _ _ _) as [i|]; [|left; reflexivity].
    destruct (nth_in_or_default i (p0 :: t) p0) as [Hin| ->]; [exact Hin|left; reflexivity]. }
  destruct (alpha_go_rel f ref0 Hr (chunks_exact bpp data) (chunks_exact bpp prev) None []) as (R & F);
    [congruence|apply chunks_exact_bytes; assumption|apply chunks_exact_bytes; assumption|exact I|].
  set (out := alpha_go f cb None ref0 (chunks_exact bpp data) (chunks_exact bpp prev) []) in *.
  unfold pxok in F. apply Forall_and_inv in F. destruct F as [Hu Hb].
  assert (Hlo : length (concat out) = length data).
  { rewrite (concat_length_uniform bpp) by assumption. rewrite <- (Forall2_length _ _ _ R), C3. lia. }
  assert (Hres : line_rel data (concat out)).
  { split; [assumption|split; [apply Forall_concat; exact Hb|]]. rewrite chunks_exact_concat by (assumption || lia). exact R. }
  (* nothing of the line is left over after the whole pixels *)
  rewrite Hlo, skipn_all, app_nil_r. destruct f; try exact Hres. apply line_rel_refl; assumption.
Qed.

End AL.
