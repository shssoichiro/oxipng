(* The top of the pipeline model: the never-larger decision (C04, C13), where the emitted candidate comes from,
   and C08 at the level of optimize_raw. *)
From OxiVerif Require Import Base.Common Base.ListFacts Model.Types Model.Options Model.PngData Model.Optimize Model.Evaluate Model.Reductions
  Model.Filters Model.Color Proofs.EvalProofs Proofs.ReductionInv Proofs.EffectProofs.

(* optimize_from_memory, any oracles (zlib, Brute chooser, clock): without --force the result is the
   input itself or strictly smaller *)
Theorem never_larger (e : env) (o : options) (bytes out : list Z) :
  force o = false ->
  optimize_from_memory e o bytes = Ok out ->
  out = bytes \/ lenZ out < lenZ bytes.
Proof.
  intros Hf H. unfold optimize_from_memory in H.
  apply bind_Ok in H as (p & _ & H). apply bind_Ok in H as (out' & _ & H).
  unfold is_fully_optimized in H. rewrite Hf in H. cbn [negb] in H. rewrite andb_true_r in H.
  destruct (lenZ bytes <=? lenZ out') eqn:E; injection H as <-.
  - left. reflexivity.
  - right. apply Z.leb_gt in E. exact E.
Qed.

(* with --force the optimiser's own output is returned whatever its size *)
Theorem forced_output (e : env) (o : options) (bytes out : list Z) :
  force o = true ->
  optimize_from_memory e o bytes = Ok out ->
  exists p, from_slice e bytes o = Ok p /\ optimize_png e p o = Ok out.
Proof.
  intros Hf H. unfold optimize_from_memory in H.
  apply bind_Ok in H as (p & E1 & H). apply bind_Ok in H as (out' & E2 & H).
  unfold is_fully_optimized in H. rewrite Hf in H. cbn [negb] in H. rewrite andb_false_r in H.
  injection H as <-. exists p. auto.
Qed.

Section Chain.
Variable f : list Z -> list Z.
Hypothesis f_shrinks : forall x, f x = x \/ lenZ (f x) < lenZ x.

Fixpoint iter (n : nat) (x : list Z) : list Z := match n with O => x | S n => iter n (f x) end.

Lemma iter_S_out n x : iter (S n) x = f (iter n x).
Proof. revert x; induction n as [|n IH]; intros x; [reflexivity|]. cbn [iter] in *. rewrite IH. reflexivity. Qed.

Lemma iter_monotone n x : lenZ (iter n x) <= lenZ x.
Proof.
  revert x; induction n as [|n IH]; intros x; cbn [iter]; [lia|].
  specialize (IH (f x)). destruct (f_shrinks x) as [E|E]; [rewrite E in *; lia|lia].
Qed.

Lemma fixed_stays n x : f x = x -> iter n x = x.
Proof. intros E. induction n as [|n IH]; cbn [iter]; [reflexivity|]. rewrite E. exact IH. Qed.

(* repeated runs reach a byte-level fixed point after at most (length of the input) shrinking steps *)
Theorem chain_fixed_point x : exists n, (n <= length x)%nat /\ f (iter n x) = iter n x.
Proof.
  enough (G : forall k y, (length y <= k)%nat -> exists n, (n <= length y)%nat /\ f (iter n y) = iter n y)
    by exact (G (length x) x (le_n _)).
  clear x. induction k as [|k IH]; intros x Hk.
  - exists O. split; [lia|]. cbn [iter]. destruct (f_shrinks x) as [E|E]; auto. unfold lenZ in E. lia.
  - destruct (f_shrinks x) as [E|E].
    + exists O. split; [lia|]. exact E.
    + assert (Hlen : (length (f x) <= k)%nat) by (unfold lenZ in E; lia).
      destruct (IH (f x) Hlen) as [n [Hn Hfix]].
      exists (S n). split; [unfold lenZ in E; lia|]. cbn [iter]. exact Hfix.
Qed.
End Chain.

(* one optimisation step as a total function on bytes (errors leave the file as it is) *)
Definition opt_step (e : env) (o : options) (bytes : list Z) : list Z :=
  match optimize_from_memory e o bytes with Ok out => out | _ => bytes end.

Lemma opt_step_shrinks e o : force o = false -> forall x, opt_step e o x = x \/ lenZ (opt_step e o x) < lenZ x.
Proof.
  intros Hf x. unfold opt_step. destruct (optimize_from_memory e o x) as [out|?|?] eqn:E; auto.
  destruct (never_larger e o x out Hf E); auto.
Qed.

Fixpoint chain (steps : list (env * options)) (x : list Z) : list Z :=
  match steps with
  | [] => x
  | (e, o) :: t => chain t (opt_step e o x)
  end.

Theorem chain_never_grows steps : Forall (fun eo => force (snd eo) = false) steps ->
  forall x, lenZ (chain steps x) <= lenZ x.
Proof.
  induction 1 as [|[e o] t Ho Ht IH]; intros x; cbn [chain]; [lia|].
  cbn [snd] in Ho. specialize (IH (opt_step e o x)).
  destruct (opt_step_shrinks e o Ho x) as [E|E]; [rewrite E in *; lia|lia].
Qed.

Lemma all_res_In {A} (l : list (res A)) outs : all_res l = Ok outs ->
  forall x, In x outs -> In (Ok x) l.
Proof.
  revert outs; induction l as [|r t IH]; intros outs H x Hx; cbn [all_res] in H.
  - injection H as <-. destruct Hx.
  - apply bind_Ok in H as (a & -> & H). apply bind_Ok in H as (rest & E & [= <-]).
    destruct Hx as [<-|Hx]; [left; reflexivity|right; eapply IH; eauto].
Qed.

Lemma in_number_from {A} (l : list A) : forall n k x, In (k, x) (number_from n l) -> In x l.
Proof. induction l as [|a t IH]; intros n k x H; cbn in H; [destruct H|]. destruct H as [E|H]; [injection E as _ <-; left; reflexivity|right; eauto]. Qed.

Lemma deflate_capped_ok e d x mx y : deflate_capped e d x mx = Ok y -> y = z_deflate e d x.
Proof. unfold deflate_capped. destruct mx as [m|]; [destruct (m <? lenZ (z_deflate e d x))|]; intros [= <-]; reflexivity. Qed.

Section Prov.
Variable e : env.

(* the data of a candidate is what its image, filter and flags say; the alpha optimisation can have been used only if [allowed] *)
Definition cand_ok_in (allowed : bool) (c : candidate) : Prop :=
  exists alpha filtered, (alpha = true -> allowed = true) /\
    filter_image (e_brute e (c_image c) alpha) (c_image c) (c_filter c) alpha = Ok filtered /\
    (if c_compressed c then exists d, c_cdata c = z_deflate e d filtered else c_cdata c = filtered).

Lemma cand_ok_in_mono a c : cand_ok_in false c -> cand_ok_in a c.
Proof. intros (alpha & filtered & Hal & Hf & Hd). exists alpha, filtered. split; [intros Ht; specialize (Hal Ht); discriminate|split; assumption]. Qed.

Definition cand_good (imgs : list image) (allowed : bool) (c : candidate) : Prop :=
  In (c_image c) imgs /\ cand_ok_in allowed c.

Lemma run_trial_ok ev d al fr nth img f out :
  run_trial e ev d al fr nth img f = Ok out ->
  c_image (to_cand out) = img /\ tNth (to_trial out) = Z.of_nat nth /\ tFilter (to_trial out) = filter_code f /\
  tSkip (to_trial out) = dl e (STrial ev nth (filter_code f)) /\
  (tSkip (to_trial out) = false -> cand_ok_in al (to_cand out)).
Proof.
  unfold run_trial. destruct (dl e (STrial ev nth (filter_code f))).
  - intros [= <-]. cbn. repeat split; auto. discriminate.
  - intros H. apply bind_Ok in H as (filtered & Ef & [= <-]). cbn. repeat split; auto. intros _.
    exists al, filtered. cbn. split; [auto|]. split; [exact Ef|]. destruct fr; eauto.
Qed.

(* whether a trial is skipped depends only on its submission number and filter *)
Lemma evaluator_trials_ok ev fs d al fr images outs :
  evaluator_trials e ev fs d al fr images = Ok outs ->
  forall out, In out outs ->
    In (c_image (to_cand out)) images /\
    tSkip (to_trial out) = dl e (STrial ev (Z.to_nat (tNth (to_trial out))) (tFilter (to_trial out))) /\
    (tSkip (to_trial out) = false -> cand_ok_in al (to_cand out)).
Proof.
  unfold evaluator_trials. intros H out Hin.
  apply (all_res_In _ _ H), in_flat_map in Hin as ([n img] & Hni & Hm). apply in_map_iff in Hm as (f & Hf & _).
  destruct (run_trial_ok _ _ _ _ _ _ _ _ Hf) as (E0 & E1 & E2 & E3 & E4). rewrite E0, E1, E2, Nat2Z.id.
  split; [exact (in_number_from _ _ _ _ Hni)|auto].
Qed.

(* the winner is looked up by submission number and filter; the trial found is skipped or not as the winner is *)
Lemma evaluator_best_good ev fs d al fr images outs init c :
  evaluator_trials e ev fs d al fr images = Ok outs ->
  evaluator_best outs init = Some c -> cand_good images al c.
Proof.
  intros Ht Hb. unfold evaluator_best in Hb.
  destruct (best_of init (map to_trial outs)) as [m|] eqn:Em; [|discriminate].
  destruct (find _ outs) as [o|] eqn:Ef; [|discriminate]. injection Hb as <-.
  apply find_some in Ef as [Hin Hmatch]. apply andb_prop in Hmatch as [M1 M2]. apply Z.eqb_eq in M1, M2.
  apply best_of_eligible in Em as [Hm He]. apply in_map_iff in Hm as (o' & <- & Hin').
  destruct (evaluator_trials_ok _ _ _ _ _ _ _ Ht o' Hin') as (_ & S' & _).
  destruct (evaluator_trials_ok _ _ _ _ _ _ _ Ht o Hin) as (I & S & C).
  split; [exact I|]. apply C. rewrite S, M1, M2, <- S'. apply andb_prop in He as [He _]. apply negb_true_iff, He.
Qed.

Lemma perform_trials_good imgs o img max_size prev efs ed c :
  In img imgs -> (forall p, prev = Some p -> cand_good imgs (optimize_alpha o) p) ->
  perform_trials e o img max_size prev efs ed = Ok (Some c) -> cand_good imgs (optimize_alpha o) c.
Proof.
  intros Himg Hprev H. unfold perform_trials in H.
  assert (Hnew : forall fs d fr outs init r, evaluator_trials e 1 fs d (optimize_alpha o) fr [img] = Ok outs ->
                   evaluator_best outs init = Some r -> cand_good imgs (optimize_alpha o) r).
  { intros fs d fr outs init r Ho Hb. destruct (evaluator_best_good _ _ _ _ _ _ _ _ _ Ho Hb) as [[E|[]] Hok]. split; [rewrite <- E; exact Himg|exact Hok]. }
  destruct (fast_evaluation o && _).
  - apply bind_Ok in H as (er & Eer & H).
    assert (Her : forall p, er = Some p -> cand_good imgs (optimize_alpha o) p).
    { destruct (match prev with Some _ => filters_difference (filter o) efs | None => filter o end);
        [injection Eer as <-; exact Hprev|].
      apply bind_Ok in Eer as (outs & Eo & Eer).
      destruct (evaluator_best outs _) as [r0|] eqn:Eb; [|injection Eer as <-; exact Hprev].
      injection Eer as <-.
      destruct (match prev with None => true | Some _ => _ end); [intros p [= <-]; exact (Hnew _ _ _ _ _ _ Eo Eb)|exact Hprev]. }
    destruct er as [r|]; [|discriminate]. specialize (Her r eq_refl).
    destruct (c_compressed r) eqn:Ec; [injection H as <-; exact Her|].
    destruct (deflate_capped e (deflate o) (c_cdata r) max_size) as [idat|?|?] eqn:Ed; injection H as <-; try exact Her.
    (* the final compression: same image and filter, the data compressed *)
    destruct Her as [Hi (al & filtered & Hal & Ef & Hd)]. rewrite Ec in Hd. split; [exact Hi|].
    exists al, filtered. cbn. split; [exact Hal|]. split; [exact Ef|].
    exists (deflate o). rewrite <- Hd. exact (deflate_capped_ok _ _ _ _ _ Ed).
  - apply bind_Ok in H as (outs & Eo & [= H]).
    destruct (evaluator_best outs max_size) as [new|] eqn:Eb.
    + pose proof (Hnew _ _ _ _ _ _ Eo Eb) as Hn.
      destruct prev as [p|]; [destruct (c_compressed p && _)|]; injection H as <-; auto.
    + destruct prev as [p|]; [|discriminate]. destruct (c_compressed p); [|discriminate]. injection H as <-. auto.
Qed.

(* what optimize_raw emits is compressed, is the compressor's answer for the filtered scan lines of its own image under its own
   filter, and its image is the baseline of perform_reductions or one of the images handed to the evaluator *)
Theorem optimize_raw_good o img max_size c baseline evs :
  perform_reductions e o img = Ok (baseline, evs) ->
  optimize_raw e o img max_size = Ok (Some c) ->
  c_compressed c = true /\ cand_good (baseline :: submitted evs) (optimize_alpha o) c.
Proof.
  intros Hpr H. unfold optimize_raw in H. rewrite Hpr in H. cbn [bind] in H.
  apply bind_Ok in H as (outs & Eo & H). cbv zeta in H. apply bind_Ok in H as (result & Er & H).
  assert (Hev : forall p, evaluator_best outs None = Some p -> cand_good (baseline :: submitted evs) (optimize_alpha o) p).
  { intros p Hp. destruct (evaluator_best_good _ _ _ _ _ _ _ _ _ Eo Hp) as [Hi Hok].
    split; [right; exact Hi|exact (cand_ok_in_mono _ _ Hok)]. }
  destruct result as [r|]; [|discriminate]. destruct (c_compressed r) eqn:Ec; [|discriminate]. cbn [andb] in H.
  destruct (match max_size with Some _ => _ | None => _ end); [|discriminate]. injection H as <-. split; [exact Ec|].
  destruct (idat_recoding o || _); [|injection Er as Er; exact (Hev _ Er)].
  revert Er. apply perform_trials_good; [|exact Hev].
  destruct (evaluator_best outs None) as [p|] eqn:Ep; [exact (proj1 (Hev p eq_refl))|left; reflexivity].
Qed.
End Prov.

Lemma submitted_ok (Q : image -> Prop) evs : Forall (ev_ok Q) evs -> forall i, In i (submitted evs) -> Q i.
Proof.
  induction 1 as [|ev t Hev Ht IH]; intros i Hi; cbn [submitted] in Hi; [destruct Hi|].
  destruct ev as [s p|img d]; [apply IH; exact Hi|]. destruct Hi as [<-|Hi]; [exact Hev|apply IH; exact Hi].
Qed.

Lemma optimize_raw_runs_reductions e o img max_size r :
  optimize_raw e o img max_size = Ok r -> exists b evs, perform_reductions e o img = Ok (b, evs).
Proof. unfold optimize_raw. intros H. apply bind_Ok in H as ([b evs] & E & _). eauto. Qed.

Lemma emitted_satisfies (Q : image -> Prop) e o img max_size c :
  (forall b evs, perform_reductions e o img = Ok (b, evs) -> all_candidates Q b evs) ->
  optimize_raw e o img max_size = Ok (Some c) -> Q (c_image c).
Proof.
  intros Hall H. destruct (optimize_raw_runs_reductions _ _ _ _ _ H) as (b & evs & Hpr).
  destruct (Hall b evs Hpr) as [Hb Hevs].
  destruct (optimize_raw_good _ _ _ _ _ _ _ Hpr H) as (_ & [<-|Hin] & _); [exact Hb|exact (submitted_ok _ _ Hevs _ Hin)].
Qed.

Lemma rgba8_eqb_refl c : rgba8_eqb c c = true.
Proof. destruct c as [[[r g] b] a]. cbn. rewrite !Z.eqb_refl. reflexivity. Qed.
Lemma color_type_eqb_refl c : color_type_eqb c c = true.
Proof.
  destruct c as [[k|]|[[[r g] b]|]|p| |]; cbn; rewrite ?Z.eqb_refl; auto.
  apply list_eqb_refl. apply rgba8_eqb_refl.
Qed.

(* all transformation switches off, interlacing kept, recompression off: nothing is produced, so the
   caller keeps the decoded input (same IDAT stream, same header) *)
Theorem nothing_enabled_nothing_done e o img max_size :
  bit_depth_reduction o = false -> color_type_reduction o = false -> palette_reduction o = false ->
  grayscale_reduction o = false -> interlace o = None -> idat_recoding o = false ->
  optimize_raw e o img max_size = Ok None.
Proof.
  intros Hbd Hct Hpal Hg Hil Hre.
  unfold optimize_raw, perform_reductions, s_interlace. rewrite Hil. cbn [bind].
  unfold reduction_steps. cbn [run_steps].
  unfold s_clean_alpha, s_16_to_8, s_rgb_gray, s_expand, s_baseline, s_palette, s_alpha, s_to_channels,
    s_to_indexed, s_sorts, s_depth, s_final.
  rewrite Hbd, Hct, Hpal, Hg. rewrite !andb_false_r. cbn [andb].
  remember (guard e (optimize_alpha o) SCleanAlpha _) as g1 eqn:G. unfold guard. destruct g1 as [go st1]. symmetry in G.
  assert (Hst1 : hdr (r_png st1) = hdr img /\ r_added st1 = false /\ submitted (rev (r_events st1)) = []).
  { unfold guard in G. destruct (optimize_alpha o); injection G as <- <-; cbn; auto. }
  destruct Hst1 as (Hh & Ha & Hs).
  set (st2 := if go then match cleaned_alpha_channel (r_png st1) with Some x => set_png st1 x true | None => st1 end else st1).
  assert (Hst2 : hdr (r_png st2) = hdr img /\ r_added st2 = false /\ r_events st2 = r_events st1).
  { subst st2. destruct go; [|auto]. destruct (cleaned_alpha_channel (r_png st1)) as [x|] eqn:E; [|auto].
    cbn. rewrite (eff_clean _ _ E). auto. }
  destruct Hst2 as (Hh2 & Ha2 & He2).
  cbn [bind guard].
  cbn [set_baseline r_added r_baseline r_events r_png].
  rewrite Ha2. cbn [bind r_baseline r_events set_baseline].
  rewrite He2, Hs. cbn [number_from flat_map all_res evaluator_trials bind].
  unfold evaluator_trials. cbn [number_from flat_map all_res bind evaluator_best map best_of best_of_go].
  rewrite Hh2. rewrite color_type_eqb_refl, Z.eqb_refl, eqb_reflx. cbn [negb orb].
  rewrite Hre. cbn [orb bind]. reflexivity.
Qed.
