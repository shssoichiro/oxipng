(* C19 / C03 at image level: for each of the ten filter strategies (any choice oracle for Brute), the rows that filter_image writes
   - first rows of an image or of an interlace pass included - carry legal filter types and decode, under the specification's
   reconstruction of a whole (possibly interlaced) image, to the scan lines that were filtered, each possibly rewritten by
   filter_line's alpha optimisation. The induction over the rows is done once, for any relation R between a line and what
   filter_line makes of it; without alpha optimisation R is equality. *)
From OxiVerif Require Import Base.Common Base.ListFacts Spec.Filter Model.Types Model.ScanLines Model.Filters Proofs.FilterProofs.

(* relation between the loop state of filter_image and the decoder's state. The heuristics' `continue` on an all-zero line
   leaves prev_pass stale; that is harmless, because the decoder's fallback reference is then the same line of zeros. *)
Definition st_rel (st : fi_state) (sst : option (option Z * list Z)) : Prop :=
  match sst with
  | None => fi_prev_line st = []
  | Some (p, l) => fi_prev_line st = l /\ (fi_prev_pass st = p \/ all_zero l = true)
  end.

Definition model_prev (st : fi_state) (pass : option Z) (n : nat) : list Z :=
  if negb (opt_Z_eqb (fi_prev_pass st) pass) || negb (n =? length (fi_prev_line st))%nat
  then repeat 0 n else fi_prev_line st.

Lemma all_zero_repeat l : all_zero l = true -> l = repeat 0 (length l).
Proof.
  unfold all_zero. rewrite forallb_forall. intros H. apply Forall_eq_repeat, Forall_forall.
  intros x Hx. symmetry. apply Z.eqb_eq, H, Hx.
Qed.

Lemma opt_Z_eqb_spec a b : opt_Z_eqb a b = match a, b with Some x, Some y => x =? y | None, None => true | _, _ => false end.
Proof. destruct a, b; reflexivity. Qed.

Lemma prev_agree st sst pass n : st_rel st sst -> model_prev st pass n = same_pass_prev sst pass n.
Proof.
  unfold model_prev, same_pass_prev. destruct sst as [[p l]|]; cbn [st_rel].
  - intros [-> Hp]. rewrite <- opt_Z_eqb_spec, (Nat.eqb_sym n). destruct (Nat.eqb_spec (length l) n) as [<-|_]; cbn [negb].
    + destruct Hp as [->|Hz]; [destruct (opt_Z_eqb p pass); reflexivity|].
      (* whatever the passes say, the reference is this line of zeros *)
      apply all_zero_repeat in Hz. destruct (negb _ || false), (_ && true); congruence.
    + rewrite orb_true_r, andb_false_r. reflexivity.
  - intros ->. cbn [length]. destruct n; [destruct (negb _)|rewrite orb_true_r]; reflexivity.
Qed.

Lemma model_prev_length st pass n : length (model_prev st pass n) = n.
Proof.
  unfold model_prev. destruct (negb (opt_Z_eqb (fi_prev_pass st) pass)); cbn [orb]; [apply repeat_length|].
  destruct (Nat.eqb_spec n (length (fi_prev_line st))); cbn [negb]; [auto|apply repeat_length].
Qed.

Lemma model_prev_bytes st pass n : bytes_ok (fi_prev_line st) -> bytes_ok (model_prev st pass n).
Proof. intros H. unfold model_prev. destruct (_ || _); [apply bytes_ok_zeros|exact H]. Qed.

Lemma spec_filter_none bpb d prev : bytes_ok d -> length prev = length d -> spec_filter_line bpb 0 d prev = d.
Proof.
  unfold spec_filter_line. generalize (@nil Z) at 1 as rp. generalize (@nil Z) as rq. revert prev.
  induction d as [|x d IH]; intros [|u p] rq rp Hok Hl; try discriminate Hl; [reflexivity|].
  apply bytes_ok_cons in Hok. destruct Hok as [Hx Hd]. cbn [filt_go pred_spec]. rewrite Z.sub_0_r, Z.mod_small by exact Hx.
  f_equal. apply IH; auto.
Qed.

Lemma standard_code_range f : is_standard f = true -> 0 <= filter_code f <= 4.
Proof. destruct f; try discriminate; cbn; lia. Qed.

Lemma pick_min_in score cands : forall best c, pick_min score cands best = Some c ->
  In c (match best with Some (_, b) => b :: cands | None => cands end).
Proof.
  induction cands as [|x t IH]; intros best c H; cbn [pick_min] in H.
  - destruct best as [[s b]|]; [injection H as <-; left; reflexivity|discriminate].
  - destruct best as [[bs b]|]; [destruct (_ <? _)|]; apply IH in H.
    + right. exact H.
    + destruct H as [H|H]; [left; exact H|right; right; exact H].
    + exact H.
Qed.

Lemma pick_max_is_min score cands : forall best,
  pick_max score cands best = pick_min (fun b => - score b) cands (option_map (fun sc => (- fst sc, snd sc)) best).
Proof.
  induction cands as [|x t IH]; intros [[bs b]|]; cbn [pick_max pick_min option_map fst snd]; rewrite ?IH; try reflexivity.
  destruct (Z.ltb_spec bs (score (fst x))), (Z.ltb_spec (- score (fst x)) (- bs)); try lia; reflexivity.
Qed.

(* What the theorem about rows needs to know of filter_line with `ab` alpha bytes, on lines of admissible length: it writes
   the specification's filter of a line R-related to the given one. R composes, since try_all hands each filter the line
   as the one before it left it. *)
Record rewrites (bpb ab : nat) (adm : nat -> Prop) (R : list Z -> list Z -> Prop) : Prop := {
  R_refl : forall d, bytes_ok d -> R d d;
  R_trans : forall a b c, R a b -> R b c -> R a c;
  R_keeps : forall d d', bytes_ok d -> R d d' -> length d' = length d /\ bytes_ok d';
  line_ok : forall f d prev, is_standard f = true -> bytes_ok d -> adm (length d) -> length prev = length d -> bytes_ok prev ->
    exists d', R d d' /\ filter_line f bpb d prev ab = Ok (filter_code f :: spec_filter_line bpb (filter_code f) d' prev, d')
}.

Lemma rewrites_exact bpb : rewrites bpb 0 (fun n => (bpb <= n)%nat) eq.
Proof.
  split.
  - reflexivity.
  - intros a b c. apply eq_trans.
  - intros d d' Hd <-. auto.
  - intros f d prev Hf Hd Ha Hl Hp. exists d. split; [reflexivity|]. apply (filter_line_is_spec f bpb d prev 0); assumption.
Qed.

Section Rows.
Variables (bpb ab : nat) (adm : nat -> Prop) (R : list Z -> list Z -> Prop).
Hypothesis HR : rewrites bpb ab adm R.

Definition row_for (prev d : list Z) (c : list Z * list Z) : Prop :=
  R d (snd c) /\ exists f, is_standard f = true /\ fst c = filter_code f :: spec_filter_line bpb (filter_code f) (snd c) prev.

Lemma filter_line_row f d prev : is_standard f = true -> bytes_ok d -> adm (length d) -> length prev = length d -> bytes_ok prev ->
  exists c, filter_line f bpb d prev ab = Ok c /\ row_for prev d c.
Proof.
  intros Hf Hd Ha Hl Hp. destruct (line_ok _ _ _ _ HR f d prev Hf Hd Ha Hl Hp) as (d' & Rd & E).
  eexists. split; [exact E|]. split; [exact Rd|]. exists f. split; [exact Hf|reflexivity].
Qed.

Lemma try_all_ok fs prev : bytes_ok prev -> Forall (fun f => is_standard f = true) fs ->
  forall d, bytes_ok d -> adm (length d) -> length prev = length d ->
  exists cands, try_all fs bpb d prev ab = Ok cands /\ Forall (row_for prev d) cands.
Proof.
  intros Hp Hfs. induction Hfs as [|f t Hf _ IH]; intros d Hd Ha Hl; cbn [try_all].
  - exists []. split; constructor.
  - destruct (filter_line_row f d prev Hf Hd Ha Hl Hp) as ([buf d'] & E & Rd & Hrow). rewrite E. cbn [bind snd] in *.
    destruct (R_keeps _ _ _ _ HR d d' Hd Rd) as [L B].
    destruct (IH d' B) as (cands & Ec & Fc); [rewrite L; exact Ha|congruence|].
    rewrite Ec. cbn [bind]. eexists. split; [reflexivity|]. constructor; [split; assumption|].
    eapply Forall_impl; [|exact Fc]. intros c [Rc Hc]. split; [exact (R_trans _ _ _ _ HR _ _ _ Rd Rc)|exact Hc].
Qed.

Lemma strategy_picks_candidate (brute : brute_oracle) f n cands c :
  match f with
  | FMinSum => pick_min minsum_score cands None
  | FEntropy => pick_max entropy_score cands None
  | FBigrams => pick_min bigrams_score cands None
  | FBigEnt => pick_max bigent_score cands None
  | FBrute => nth_error cands (brute n (map fst cands))
  | _ => None
  end = Some c -> In c cands.
Proof.
  intros H. destruct f; try discriminate.
  - exact (pick_min_in _ _ _ _ H).
  - rewrite pick_max_is_min in H. exact (pick_min_in _ _ _ _ H).
  - exact (pick_min_in _ _ _ _ H).
  - rewrite pick_max_is_min in H. exact (pick_min_in _ _ _ _ H).
  - exact (nth_error_In _ _ H).
Qed.

Lemma filter_image_step_chooses brute f st line st' :
  bytes_ok (l_data line) -> adm (length (l_data line)) -> bytes_ok (fi_prev_line st) ->
  filter_image_step brute f bpb ab st line = Ok st' ->
  exists c, row_for (model_prev st (l_pass line) (length (l_data line))) (l_data line) c /\
    fi_out st' = fst c :: fi_out st /\ st_rel st' (Some (l_pass line, snd c)).
Proof.
  intros Hok Ha Hpok H. unfold filter_image_step in H. fold (model_prev st (l_pass line) (length (l_data line))) in H.
  pose proof (model_prev_length st (l_pass line) (length (l_data line))) as Hpl.
  pose proof (model_prev_bytes st (l_pass line) (length (l_data line)) Hpok) as Hpb.
  set (ldata := l_data line) in *. set (prev := model_prev st (l_pass line) (length ldata)) in *.
  destruct (is_standard f) eqn:Estd.
  - set (f' := if opt_Z_eqb (fi_prev_pass st) (l_pass line) || (filter_code f <=? 1) then f else FNone) in *.
    assert (Hf' : is_standard f' = true) by (unfold f'; destruct (_ || _); [exact Estd|reflexivity]).
    destruct (filter_line_row f' ldata prev Hf' Hok Ha Hpl Hpb) as ([buf d'] & E & Hrow).
    rewrite E in H. cbn [bind] in H. injection H as <-. exists (buf, d'). cbn. auto.
  - destruct (all_zero ldata) eqn:Ez.
    + (* the row 0 :: ldata is FNone's *)
      injection H as <-. exists (0 :: ldata, ldata). cbn [fst snd fi_out fi_prev_line st_rel]. split; [|auto].
      split; [apply (R_refl _ _ _ _ HR); exact Hok|]. exists FNone. cbn [filter_code snd]. rewrite spec_filter_none by assumption. auto.
    + set (tf := if opt_Z_eqb (fi_prev_pass st) (l_pass line) then standard_filters else single_line_filters) in *.
      assert (Htf : Forall (fun f => is_standard f = true) tf) by (unfold tf; destruct (opt_Z_eqb _ _); repeat constructor).
      destruct (try_all_ok tf prev Hpb Htf ldata Hok Ha Hpl) as (cands & Ec & Fc). rewrite Forall_forall in Fc.
      rewrite Ec in H. cbn [bind] in H.
      destruct (match f with FMinSum => _ | _ => _ end) as [[buf raw]|] eqn:Ebest; [|discriminate].
      injection H as <-. apply strategy_picks_candidate in Ebest. exists (buf, raw). cbn. auto.
Qed.

Lemma filter_image_go_ok brute f : forall lines st sst st',
  st_rel st sst -> bytes_ok (fi_prev_line st) ->
  Forall (fun l => bytes_ok (l_data l) /\ adm (length (l_data l))) lines ->
  filter_image_go brute f bpb ab st lines = Ok st' ->
  exists rows lines', fi_out st' = rev rows ++ fi_out st /\
    Forall2 (fun r l => exists ft buf, r = ft :: buf /\ 0 <= ft <= 4 /\ length buf = length (l_data l)) rows lines /\
    Forall2 R (map l_data lines) lines' /\
    spec_recon_seq bpb sst (combine (map l_pass lines) rows) = Some lines'.
Proof.
  induction lines as [|l t IH]; intros st sst st' Rst Hpok Hall H; cbn [filter_image_go] in H.
  - injection H as <-. exists [], []. repeat split; constructor.
  - apply Forall_cons_iff in Hall. destruct Hall as [[Hok Ha] Hall'].
    destruct (filter_image_step brute f bpb ab st l) as [st1|?|?] eqn:Es; cbn [bind] in H; try discriminate.
    destruct (filter_image_step_chooses _ _ _ _ _ Hok Ha Hpok Es) as ([row d'] & (Rd & f' & Hf' & Erow) & Eout & Rst1).
    cbn [fst snd] in *. subst row.
    destruct (R_keeps _ _ _ _ HR _ _ Hok Rd) as [L B].
    set (prev := model_prev st (l_pass l) (length (l_data l))) in *.
    assert (Hpl : length prev = length d') by (rewrite L; apply model_prev_length).
    pose proof (spec_filter_length bpb (filter_code f') d' _ Hpl) as Hbl.
    destruct (IH st1 (Some (l_pass l, d')) st' Rst1 ltac:(rewrite (proj1 Rst1); exact B) Hall' H) as (rows & lines' & Eout' & F2 & FR & Hseq).
    eexists (_ :: rows), (d' :: lines'). split; [|split; [|split]].
    + rewrite Eout', Eout. cbn [rev]. rewrite <- app_assoc. reflexivity.
    + constructor; [|exact F2]. eexists _, _. split; [reflexivity|]. split; [apply standard_code_range; exact Hf'|congruence].
    + cbn [map]. constructor; assumption.
    + cbn [map combine spec_recon_seq]. destruct (standard_code_range f' Hf') as [H0 H4].
      apply Z.leb_le in H0, H4. rewrite H0, H4. cbn [andb].
      rewrite Hbl, L, <- (prev_agree st sst) by exact Rst. rewrite spec_filter_roundtrip, Hseq by assumption. reflexivity.
Qed.
End Rows.

Theorem filter_image_rows_ok brute (img : image) f oa ab adm R lines rows :
  (if oa && has_alpha (ctype (hdr img)) then Z.to_nat (bytes_per_channel img) else 0%nat) = ab ->
  rewrites (bpp_bytes img) ab adm R ->
  scan_lines img false = Ok lines ->
  Forall (fun l => bytes_ok (l_data l) /\ adm (length (l_data l))) lines ->
  filter_image_rows brute img f oa = Ok rows ->
  exists lines',
    Forall2 (fun r l => exists ft buf, r = ft :: buf /\ 0 <= ft <= 4 /\ length buf = length (l_data l)) rows lines /\
    Forall2 R (map l_data lines) lines' /\
    spec_recon_seq (bpp_bytes img) None (combine (map l_pass lines) rows) = Some lines'.
Proof.
  intros <- HR Hsl Hall H. unfold filter_image_rows in H. rewrite Hsl in H. cbn [bind] in H.
  destruct (filter_image_go _ _ _ _ _ _) as [st|?|?] eqn:Ego; cbn [bind] in H; try discriminate.
  injection H as <-.
  apply (filter_image_go_ok _ _ _ _ HR) with (sst := None) in Ego; [|reflexivity|constructor|exact Hall].
  destruct Ego as (rows & lines' & Eout & F).
  cbn [fi_out] in Eout. rewrite app_nil_r in Eout. rewrite Eout, rev_involutive. exists lines'. exact F.
Qed.

Theorem filter_image_rows_roundtrip brute (img : image) f lines rows :
  (1 <= bpp_bytes img)%nat ->
  scan_lines img false = Ok lines ->
  Forall (fun l => bytes_ok (l_data l) /\ (bpp_bytes img <= length (l_data l))%nat) lines ->
  filter_image_rows brute img f false = Ok rows ->
  Forall2 (fun r l => exists ft buf, r = ft :: buf /\ 0 <= ft <= 4 /\ length buf = length (l_data l)) rows lines /\
  spec_recon_seq (bpp_bytes img) None (combine (map l_pass lines) rows) = Some (map l_data lines).
Proof.
  intros _ Hsl Hall H.
  destruct (filter_image_rows_ok brute img f false _ _ _ lines rows eq_refl (rewrites_exact _) Hsl Hall H) as (lines' & F2 & FR & Hseq).
  apply (Forall2_eq eq _ _ (fun _ _ E => E)) in FR. subst lines'. split; [exact F2|exact Hseq].
Qed.
