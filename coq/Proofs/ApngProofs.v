(* C10, model side: recompress_frames keeps every fcTL field and never lengthens frame data; the sequence numbers written for the frames;
   the fields read back from a serialised fcTL payload (fctl_fields, fctl_roundtrip); animation chunks are stripped all together. *)
From OxiVerif Require Import Base.Common Base.ListFacts Model.Options Model.Headers Model.PngData Model.Optimize Proofs.ChunkProofs
  Proofs.FramesIndependent.

Definition same_frame_fields (a b : frame) : Prop :=
  f_width a = f_width b /\ f_height a = f_height b /\ f_x a = f_x b /\ f_y a = f_y b /\
  f_delay_num a = f_delay_num b /\ f_delay_den a = f_delay_den b /\ f_dispose a = f_dispose b /\ f_blend a = f_blend b.

Lemma same_frame_fields_refl f : same_frame_fields f f.
Proof. unfold same_frame_fields. tauto. Qed.

Lemma frame_result_preserves e o hd f k fr fr' : frame_result e o hd f k fr = Ok fr' ->
  same_frame_fields fr fr' /\ (f_data fr' = f_data fr \/ lenZ (f_data fr') < lenZ (f_data fr)).
Proof.
  unfold frame_result. intros E1. destruct (dl e (SFrame k)); [injection E1 as <-; split; [apply same_frame_fields_refl|left; reflexivity]|].
  apply bind_Ok in E1 as (img & _ & E1). apply bind_Ok in E1 as (flt & _ & E1). unfold deflate_capped in E1.
  destruct (lenZ (f_data fr) - 1 <? lenZ (z_deflate e (deflate o) flt)) eqn:El; injection E1 as <-.
  - split; [apply same_frame_fields_refl|left; reflexivity].
  - split; [unfold same_frame_fields, with_fdata; cbn; tauto|]. right. cbn. apply Z.ltb_ge in El. lia.
Qed.

(* recompression keeps the number and order of frames and every fcTL field; only the data may
   change, and then it is strictly smaller *)
Theorem recompress_frames_preserves e o hd f : forall i fs fs',
  recompress_frames_go e o hd f i fs = Ok fs' ->
  Forall2 (fun a b => same_frame_fields a b /\ (f_data b = f_data a \/ lenZ (f_data b) < lenZ (f_data a))) fs fs'.
Proof. apply recompress_frames_each. apply frame_result_preserves. Qed.

Theorem recompress_frames_top e o p f fs' : recompress_frames e o p f = Ok fs' ->
  Forall2 (fun a b => same_frame_fields a b /\ (f_data b = f_data a \/ lenZ (f_data b) < lenZ (f_data a))) (frames p) fs'.
Proof.
  unfold recompress_frames. intros H. destruct (negb (idat_recoding o)).
  - injection H as <-. apply Forall2_same. intros a. split; [apply same_frame_fields_refl|left; reflexivity].
  - destruct (frames p) as [|fr t] eqn:E; [injection H as <-; constructor|].
    eapply recompress_frames_preserves; eauto.
Qed.

(* chunk-level view of the frames written by `output`: (name, sequence number) of each fcTL / fdAT chunk *)
Fixpoint frame_chunks (fs : list frame) (seq : Z) : list (cname * Z) :=
  match fs with
  | [] => []
  | _ :: t => (name_fcTL, seq) :: (name_fdAT, seq + 1) :: frame_chunks t (seq + 2)
  end.

(* the sequence numbers of frame_chunks fs s0 are s0, s0 + 1, ...: consecutive from any start s0
   (for the written file see ApngFile.written_animation) *)
Theorem frame_sequence_consecutive fs : forall s0,
  map snd (frame_chunks fs s0) = map (fun k => s0 + Z.of_nat k) (seq 0 (2 * length fs)).
Proof.
  induction fs as [|f t IH]; intros s; [reflexivity|].
  cbn [frame_chunks map length]. replace (2 * S (length t))%nat with (S (S (2 * length t))) by lia.
  cbn [seq map snd]. rewrite IH.
  replace (s + Z.of_nat 0) with s by (cbn; lia). replace (s + Z.of_nat 1) with (s + 1) by (cbn; lia). do 2 f_equal.
  rewrite <- (seq_shift _ 1), <- (seq_shift _ 0), !map_map. apply map_ext. intros k. lia.
Qed.

Definition frame_in_range (f : frame) : Prop :=
  0 <= f_width f < 2 ^ 32 /\ 0 <= f_height f < 2 ^ 32 /\ 0 <= f_x f < 2 ^ 32 /\ 0 <= f_y f < 2 ^ 32 /\
  0 <= f_delay_num f < 2 ^ 16 /\ 0 <= f_delay_den f < 2 ^ 16 /\ 0 <= f_dispose f < 256 /\ 0 <= f_blend f < 256.

Lemma same_fields_in_range a b : same_frame_fields a b -> frame_in_range a -> frame_in_range b.
Proof.
  unfold same_frame_fields, frame_in_range. intros (S1 & S2 & S3 & S4 & S5 & S6 & S7 & S8).
  rewrite S1, S2, S3, S4, S5, S6, S7, S8. exact (fun H => H).
Qed.

Lemma be32_to_be32 v : 0 <= v < 2 ^ 32 -> be32_of (to_be32 v ++ []) = v /\ forall r, be32_of (to_be32 v ++ r) = v.
Proof.
  intros H. change (2 ^ 32) with 4294967296 in H. unfold to_be32, be32_of, be32. cbn [app]. split; [|intros r]; Z.div_mod_to_equations; lia.
Qed.
Lemma be16_to_be16 v r : 0 <= v < 2 ^ 16 -> be16_of (to_be16 v ++ r) = v.
Proof. intros H. change (2 ^ 16) with 65536 in H. unfold to_be16, be16_of, be16. cbn [app]. Z.div_mod_to_equations. lia. Qed.

Lemma fctl_fields f s : frame_in_range f -> 0 <= s < 2 ^ 32 ->
  let d := fctl_data f s in
  length d = 26%nat /\ be32_of d = s /\
  be32_of (skipn 4 d) = f_width f /\ be32_of (skipn 8 d) = f_height f /\ be32_of (skipn 12 d) = f_x f /\ be32_of (skipn 16 d) = f_y f /\
  be16_of (skipn 20 d) = f_delay_num f /\ be16_of (skipn 22 d) = f_delay_den f /\ nth 24 d 0 = f_dispose f /\ nth 25 d 0 = f_blend f.
Proof.
  intros (Hw & Hh & Hx & Hy & Hn & Hd & _) Hs. cbn zeta. unfold fctl_data, to_be32, to_be16. cbn [app skipn nth length].
  repeat split; [exact (proj1 (be32_to_be32 _ Hs))|exact (proj1 (be32_to_be32 _ Hw))|exact (proj1 (be32_to_be32 _ Hh))|
                 exact (proj1 (be32_to_be32 _ Hx))|exact (proj1 (be32_to_be32 _ Hy))|exact (be16_to_be16 _ [] Hn)|exact (be16_to_be16 _ [] Hd)].
Qed.

(* fcTL serialisation and parsing are inverse on the frame fields (values in range) *)
Theorem fctl_roundtrip f s : frame_in_range f -> 0 <= s < 2 ^ 32 ->
  exists g, frame_from_fctl (fctl_data f s) = Ok g /\ same_frame_fields f g /\ f_data g = [] /\ be32_of (fctl_data f s) = s.
Proof.
  intros Hr Hs. destruct (fctl_fields f s Hr Hs) as (L & E0 & E1 & E2 & E3 & E4 & E5 & E6 & E7 & E8).
  unfold frame_from_fctl. rewrite L. eexists. split; [reflexivity|].
  unfold same_frame_fields. cbn [f_width f_height f_x f_y f_delay_num f_delay_den f_dispose f_blend f_data].
  rewrite E1, E2, E3, E4, E5, E6, E7, E8. split; [repeat split|split; [reflexivity|exact E0]].
Qed.

(* when the policy does not keep all of acTL, fcTL and fdAT, every animation chunk is ignored *)
Theorem animation_stripped_together o st c :
  (cname_eqb (c_name c) name_acTL || cname_eqb (c_name c) name_fcTL || cname_eqb (c_name c) name_fdAT) = true ->
  (strip_keep (strip o) name_acTL && strip_keep (strip o) name_fcTL && strip_keep (strip o) name_fdAT) = false ->
  from_slice_step o st c = Ok st.
Proof.
  intros Hn Hk. unfold from_slice_step.
  assert (Hc : is_critical (c_name c) = false).
  { apply orb_true_iff in Hn. destruct Hn as [Hn|Hn]; [apply orb_true_iff in Hn; destruct Hn as [Hn|Hn]|];
      apply cname_eqb_eq in Hn; rewrite Hn; reflexivity. }
  destruct (not_critical _ Hc) as (-> & -> & -> & ->). destruct (strip_keep (strip o) (c_name c)); [|reflexivity].
  rewrite Hn, Hk. reflexivity.
Qed.
