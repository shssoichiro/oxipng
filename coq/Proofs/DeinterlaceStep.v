(* The loop of deinterlace_image (src/interlace.rs) as a state machine over the scan lines of the seven passes, given as
   blocks `blk p`: after line j of pass p every cell of the lines consumed so far holds its source pixel (Inv); one line
   preserves this (line_inv, step_ok), the whole input establishes it for all cells (go_ok, model_deinterlace_cells). *)
From OxiVerif Require Import Base.Common Base.ListFacts Spec.Adam7 Model.Interlace Proofs.Adam7Geom Proofs.DeinterlaceCore.
Local Open Scope Z_scope.

(* how many j >= 0 have r + j*d < n: the form of pw and ph *)
Lemma count_gt n r d j : 0 < d -> 0 <= j -> (j < (if n <=? r then 0 else cdiv (n - r) d) <-> r + j * d < n).
Proof.
  intros Hd Hj. pose proof (Z.mul_nonneg_nonneg j d Hj). destruct (Z.leb_spec n r); [lia|]. rewrite cdiv_gt by exact Hd. lia.
Qed.

Lemma pw_gt w p i : 0 <= i -> (i < pw w p <-> x0 p + i * dx p < w).
Proof. apply count_gt, dx_dy_pos. Qed.
Lemma ph_gt h p j : 0 <= j -> (j < ph h p <-> y0 p + j * dy p < h).
Proof. apply count_gt, dx_dy_pos. Qed.

Lemma pixel_index w h x y : 0 <= x < w -> 0 <= y < h -> let q := pass_of x y in
  In q passes7 /\ active w h q /\
  (0 <= (x - x0 q) / dx q < pw w q /\ x = x0 q + (x - x0 q) / dx q * dx q) /\
  (0 <= (y - y0 q) / dy q < ph h q /\ y = y0 q + (y - y0 q) / dy q * dy q).
Proof.
  intros Hx Hy q. destruct (pass_of_range x y) as (Hq & Hrow & Hcol). fold q in Hq, Hrow, Hcol.
  destruct (col_in_decomp q x Hq ltac:(lia) Hcol) as (Hi & Ex & Gx).
  destruct (row_in_decomp q y Hq ltac:(lia) Hrow) as (Hj & Ey & Gy).
  split; [exact Hq|]. split; [split; lia|]. split; (split; [split; [assumption|]|assumption]).
  - apply pw_gt; [exact Hi|lia].
  - apply ph_gt; [exact Hj|lia].
Qed.

(* the converse: the lattice points of pass p belong to pass p *)
Lemma lattice_pass p i j : In p passes7 -> pass_of (x0 p + i * dx p) (y0 p + j * dy p) = p.
Proof.
  intros Hp. destruct (pass_consts p Hp) as (_ & Hx0 & _ & Hy0).
  apply pass_of_iff; [exact Hp|]. split; apply Z.eqb_eq; apply mod_of_decomp; assumption.
Qed.

Section DI.
Context {A : Type}.
Variable blank : A.
Variables w h : Z.
Variable limit : bool.
Hypothesis Hw : 1 <= w.
Hypothesis Hh : 1 <= h.

Definition line_ok (p : Z) (l : list A) : Prop :=
  (Z.to_nat (pw w p) <= length l)%nat /\ (limit = false -> length l = Z.to_nat (pw w p)).

Definition eff (p : Z) (l : list A) : list A := if limit then firstn (Z.to_nat (pw w p)) l else l.

Lemma eff_length p l : line_ok p l -> length (eff p l) = Z.to_nat (pw w p).
Proof. clear Hw Hh. intros [H1 H2]. unfold eff. destruct limit; [rewrite firstn_length; lia|auto]. Qed.

Variable blk : Z -> list (list A).

Hypothesis Hblk : forall p, In p passes7 -> active w h p ->
  length (blk p) = Z.to_nat (ph h p) /\ Forall (line_ok p) (blk p).

Definition src (x y : Z) : A :=
  let q := pass_of x y in
  nth (Z.to_nat ((x - x0 q) / dx q)) (eff q (nth (Z.to_nat ((y - y0 q) / dy q)) (blk q) [])) blank.

Definition cell (G : list (list A)) (x y : Z) : option A :=
  match nth_error G (Z.to_nat y) with Some r => nth_error r (Z.to_nat x) | None => None end.

Definition done (p j x y : Z) : Prop :=
  let q := pass_of x y in q < p \/ (q = p /\ (y - y0 q) / dy q < j).

Definition Inv (G : list (list A)) (p j : Z) : Prop :=
  length G = Z.to_nat h /\ Forall (fun r => length r = Z.to_nat w) G /\
  forall x y, 0 <= x < w -> 0 <= y < h -> done p j x y -> cell G x y = Some (src x y).

Definition mk (G : list (list A)) (p y : Z) (s : bool) : di_state := {| di_lines := G; di_pass := p; di_y := y; di_stop := s |}.

(* writing line j of pass p into row y0 + j*dy, at the columns x0 + i*dx and nowhere else, extends the invariant by that line *)
Lemma line_inv G p j row row' : In p passes7 -> 0 <= j -> Inv G p j ->
  let y := y0 p + j * dy p in let px := eff p (nth (Z.to_nat j) (blk p) []) in
  0 <= y < h -> length px = Z.to_nat (pw w p) -> nth_error G (Z.to_nat y) = Some row -> length row' = length row ->
  (forall i : nat, (i < length px)%nat -> nth_error row' (Z.to_nat (x0 p + Z.of_nat i * dx p)) = nth_error px i) ->
  (forall k : nat, (forall i : nat, (i < length px)%nat -> k <> Z.to_nat (x0 p + Z.of_nat i * dx p)) -> nth_error row' k = nth_error row k) ->
  Inv (set_nth (Z.to_nat y) row' G) p (j + 1).
Proof.
  clear Hblk Hw Hh. intros Hp Hj (HGl & HGr & HG) y px Hy Hel Erow Lr Sa Sb.
  destruct (pass_consts p Hp) as (_ & Hx0 & _ & Hy0).
  destruct (mod_of_decomp (dy p) (y0 p) j Hy0) as [_ Ejy]. fold y in Ejy.
  assert (Eyd : y = y0 p + j * dy p) by reflexivity. clearbody y.
  split; [rewrite set_nth_length; exact HGl|]. split.
  - apply Forall_set_nth; [|exact HGr]. rewrite Lr. rewrite Forall_forall in HGr. eapply HGr, nth_error_In, Erow.
  - intros x' y' Hx' Hy' Hd. destruct (pixel_index w h x' y' Hx' Hy') as (_ & _ & (Hi & Ex) & (_ & Ey)).
    specialize (HG x' y' Hx' Hy'). unfold cell, src, done in *. cbv zeta in *. set (q := pass_of x' y') in *.
    destruct (Z.eq_dec y' y) as [E|Hney].
    + rewrite E in *. rewrite nth_error_set_nth_eq by lia. rewrite Erow in HG.
      destruct (Z.eq_dec q p) as [Eq|Nq].
      * rewrite Eq, Ejy in *. set (i := (x' - x0 p) / dx p) in *.
        replace (Z.to_nat x') with (Z.to_nat (x0 p + Z.of_nat (Z.to_nat i) * dx p)) by (rewrite Z2Nat.id by apply Hi; rewrite <- Ex; reflexivity).
        rewrite Sa by (rewrite Hel; lia). fold px. apply nth_error_nth'. rewrite Hel. lia.
      * rewrite Sb; [apply HG; destruct Hd as [Hd|[Hd _]]; [left; exact Hd|contradiction]|].
        intros i _ Heq. apply Nq. unfold q. rewrite E, Eyd.
        pose proof (Z.mul_nonneg_nonneg (Z.of_nat i) (dx p)) as E0.
        replace x' with (x0 p + Z.of_nat i * dx p) by lia. apply lattice_pass, Hp.
    + rewrite nth_error_set_nth_neq by lia. apply HG.
      destruct Hd as [Hd|[Eq Hd]]; [left; exact Hd|right]. split; [exact Eq|]. rewrite Eq in *.
      assert ((y' - y0 p) / dy p <> j) by (intros E; apply Hney; rewrite Ey, E, Eyd; reflexivity). lia.
Qed.

Lemma step_ok G p j : In p passes7 -> active w h p -> 0 <= j < ph h p -> Inv G p j ->
  exists G', Inv G' p (j + 1) /\
    deinterlace_step w h limit (mk G p (y0 p + j * dy p) false) (nth (Z.to_nat j) (blk p) []) =
    Ok (if h <=? y0 p + (j + 1) * dy p
        then match increment_pass p w h with
             | None => mk G' p (y0 p + (j + 1) * dy p) true
             | Some p' => mk G' p' (y0 p') false
             end
        else mk G' p (y0 p + (j + 1) * dy p) false).
Proof.
  intros Hp Hact Hj HI. pose proof HI as (HGl & HGr & _). pose proof Hact as [Hax _].
  destruct (pass_consts p Hp) as (_ & Hx0 & _ & Hy0).
  destruct (Hblk p Hp Hact) as [Hbl Hbf]. rewrite Forall_forall in Hbf, HGr.
  set (l := nth (Z.to_nat j) (blk p) []).
  pose proof (eff_length p l (Hbf l ltac:(apply nth_In; lia))) as Hel.
  set (y := y0 p + j * dy p).
  assert (Hy : 0 <= y < h).
  { pose proof (ph_gt h p j). pose proof (Z.mul_nonneg_nonneg j (dy p)). unfold y. lia. }
  unfold deinterlace_step, mk. cbn [di_stop di_pass di_lines di_y]. rewrite (consts_spec p Hp).
  destruct (Z.ltb_spec w (x0 p)) as [Hlt|_]; [lia|]. rewrite andb_false_r, <- (pw_active w p Hax). fold (eff p l) y.
  destruct (nth_error G (Z.to_nat y)) as [row|] eqn:Erow; [|apply nth_error_None in Erow; lia].
  destruct (scatter_spec (dx p) ltac:(lia) (eff p l) row (x0 p) ltac:(lia)) as (row' & Es & Lr & Sa & Sb).
  { (* the last pixel of the line lies inside the row *)
    right. unfold lenZ. rewrite Hel, (HGr row (nth_error_In _ _ Erow)).
    pose proof (pw_pos w p). pose proof (pw_gt w p (pw w p - 1)). lia. }
  rewrite Es. replace (y + dy p) with (y0 p + (j + 1) * dy p) by (unfold y; lia).
  exists (set_nth (Z.to_nat y) row' G). split; [apply (line_inv G p j row row'); auto; lia|].
  destruct (h <=? y0 p + (j + 1) * dy p); [|reflexivity].
  pose proof (increment_pass_spec w h p Hw Hh Hp) as IP.
  destruct (increment_pass p w h) as [p'|]; [|reflexivity].
  destruct IP as (Hp' & _). rewrite (consts_spec p' Hp'). reflexivity.
Qed.

Hypothesis Hblk0 : forall p, In p passes7 -> ~ active w h p -> blk p = [].

Definition rem_after (p : Z) : list (list A) := flat_map blk (List.filter (fun q => p <? q) passes7).
Definition rem (p j : Z) : list (list A) := skipn (Z.to_nat j) (blk p) ++ rem_after p.

Lemma rem_cons p j : In p passes7 -> active w h p -> 0 <= j < ph h p ->
  rem p j = nth (Z.to_nat j) (blk p) [] :: rem p (j + 1).
Proof.
  intros Hp Hact Hj. destruct (Hblk p Hp Hact) as [Hbl _]. unfold rem.
  rewrite (skipn_cons_nth []) by lia. replace (S (Z.to_nat j)) with (Z.to_nat (j + 1)) by lia. reflexivity.
Qed.

Lemma rem_last p : In p passes7 -> active w h p -> rem p (ph h p) = rem_after p.
Proof. intros Hp Hact. destruct (Hblk p Hp Hact) as [Hbl _]. unfold rem. rewrite skipn_all2 by lia. reflexivity. Qed.

Lemma rem_after_step p : 0 <= p < 7 -> rem_after p = blk (p + 1) ++ rem_after (p + 1).
Proof.
  clear. intros Hp. unfold rem_after.
  assert (p = 0 \/ p = 1 \/ p = 2 \/ p = 3 \/ p = 4 \/ p = 5 \/ p = 6) as [->|[->|[->|[->|[->|[->| ->]]]]]] by lia; reflexivity.
Qed.

(* passes without pixels contribute no lines *)
Lemma rem_after_skip p p' : 1 <= p <= p' -> p' <= 7 ->
  (forall q, p < q <= p' -> ~ active w h q) -> rem_after p = rem_after p'.
Proof.
  intros Hp. replace p' with (p + Z.of_nat (Z.to_nat (p' - p))) by lia.
  induction (Z.to_nat (p' - p)) as [|n IH]; intros Hn Hq; [f_equal; lia|].
  rewrite IH by (try (intros q Hq'; apply Hq); lia). rewrite rem_after_step by lia.
  rewrite Hblk0; [cbn [app]; f_equal; lia|apply passes7_range; lia|apply Hq; lia].
Qed.

Lemma inv_advance G p j p' : j = ph h p -> Inv G p j ->
  (forall q, In q passes7 -> p < q < p' -> ~ active w h q) -> Inv G p' 0.
Proof.
  intros Ej (H1 & H2 & H3) Hn. split; [exact H1|]. split; [exact H2|].
  intros x y Hx Hy Hd. apply H3; auto. unfold done in *. cbv zeta in *.
  destruct (pixel_index w h x y Hx Hy) as (Hq & Hact & _ & Hjy & _).
  destruct Hd as [Hd|[_ Hd]]; [|lia].
  destruct (Z.lt_trichotomy (pass_of x y) p) as [L|[E|Gt]]; [left; exact L| |exfalso; apply (Hn _ Hq); [lia|exact Hact]].
  right. split; [exact E|]. rewrite E in *. lia.
Qed.

Lemma go_ok : forall lines G p j, In p passes7 -> active w h p -> 0 <= j < ph h p -> Inv G p j -> lines = rem p j ->
  exists st', deinterlace_go w h limit (mk G p (y0 p + j * dy p) false) lines = Ok st' /\ Inv (di_lines st') 8 0.
Proof.
  induction lines as [|l t IH]; intros G p j Hp Hact Hj HI Hrem; rewrite rem_cons in Hrem by assumption; [discriminate|].
  injection Hrem as El Et.
  destruct (step_ok G p j Hp Hact Hj HI) as (G' & HI' & Hstep).
  cbn [deinterlace_go]. rewrite El, Hstep. cbn [bind].
  pose proof (ph_gt h p (j + 1) ltac:(lia)) as NR.
  destruct (Z.leb_spec h (y0 p + (j + 1) * dy p)) as [Hle|Hgt].
  - assert (Ej : j + 1 = ph h p) by lia. rewrite Ej, rem_last in Et by assumption.
    pose proof (increment_pass_spec w h p Hw Hh Hp) as IP. apply passes7_range in Hp.
    destruct (increment_pass p w h) as [p'|].
    + destruct IP as (Hp' & Hlt & Hact' & Hn).
      replace (y0 p') with (y0 p' + 0 * dy p') by lia. apply IH.
      * exact Hp'.
      * exact Hact'.
      * split; [lia|apply ph_pos, Hact'].
      * apply (inv_advance G' p (j + 1) p' Ej HI'). intros q _. apply Hn.
      * apply passes7_range in Hp'.
        rewrite Et, (rem_after_skip p (p' - 1) ltac:(lia) ltac:(lia) (fun q Hq => Hn q ltac:(lia))), rem_after_step by lia.
        unfold rem. cbn [Z.to_nat skipn]. do 2 f_equal; lia.
    + rewrite (rem_after_skip p 7 ltac:(lia) ltac:(lia)) in Et by (intros q Hq; apply IP; [apply passes7_range|]; lia).
      change (rem_after 7) with (@nil (list A)) in Et. subst t.
      cbn [deinterlace_go]. eexists. split; [reflexivity|].
      apply (inv_advance G' p (j + 1) 8 Ej HI'). intros q Hq Hr. apply IP; [exact Hq|lia].
  - apply IH; [exact Hp|exact Hact|lia|exact HI'|exact Et].
Qed.

Theorem model_deinterlace_cells :
  exists G, model_deinterlace blank w h limit (flat_map blk passes7) = Ok G /\
    length G = Z.to_nat h /\ Forall (fun r => length r = Z.to_nat w) G /\
    forall x y, 0 <= x < w -> 0 <= y < h -> cell G x y = Some (src x y).
Proof.
  assert (Hp1 : In 1 passes7) by (apply passes7_range; lia).
  assert (Hact1 : active w h 1) by (unfold active; cbn; lia).
  assert (Hph1 : 0 <= 0 < ph h 1) by (split; [lia|apply ph_pos, Hact1]).
  assert (HI0 : Inv (repeat (repeat blank (Z.to_nat w)) (Z.to_nat h)) 1 0).
  { split; [apply repeat_length|]. split.
    - apply Forall_forall. intros r Hr. apply repeat_spec in Hr. subst r. apply repeat_length.
    - intros x y Hx Hy Hd. exfalso. unfold done in Hd. cbv zeta in Hd.
      destruct (pixel_index w h x y Hx Hy) as (Hq & _ & _ & Hjy & _). apply passes7_range in Hq. lia. }
  destruct (go_ok (flat_map blk passes7) _ 1 0 Hp1 Hact1 Hph1 HI0) as (st' & E & (F1 & F2 & F3)).
  { unfold rem, rem_after. cbn. reflexivity. }
  unfold model_deinterlace. change (y0 1 + 0 * dy 1) with 0 in E. unfold mk in E. rewrite E. cbn [bind].
  exists (di_lines st'). split; [reflexivity|]. split; [exact F1|]. split; [exact F2|].
  intros x y Hx Hy. apply F3; auto. unfold done. cbv zeta. left. destruct (pass_of_range x y) as (Hq & _ & _). apply passes7_range in Hq. lia.
Qed.
End DI.
