(* Proofs about PngData::output (C02): what is written is a well-formed chunk sequence that the
   specification's strict container parser reads back exactly. *)
From OxiVerif Require Import Base.Common Base.ListFacts Base.Crc32 Spec.Decode Model.Types Model.Options Model.Headers Model.PngData.

Definition key_chunks (hd : ihdr) : list (cname * list Z) :=
  match ctype hd with
  | Indexed pal =>
      (name_PLTE, flat_map (fun c : rgba8 => let '(r, g, b, _) := c in [r; g; b]) pal)
      :: match rposition_alpha pal 0 None with
         | Some last => [(name_tRNS, map (fun c : rgba8 => let '(_, _, _, a) := c in a) (firstn (Z.to_nat (last + 1)) pal))]
         | None => []
         end
  | Gray (Some t) => [(name_tRNS, to_be16 t)]
  | RGB (Some (r, g, b)) => [(name_tRNS, to_be16 r ++ to_be16 g ++ to_be16 b)]
  | _ => []
  end.

Fixpoint frame_chunk_list (fs : list frame) (seq : Z) : list (cname * list Z) :=
  match fs with
  | [] => []
  | f :: t => (name_fcTL, fctl_data f seq) :: (name_fdAT, fdat_data f (seq + 1)) :: frame_chunk_list t (seq + 2)
  end.

Definition as_pair (c : chunk) : cname * list Z := (c_name c, c_data c).

Definition output_chunks (p : pngdata) : list (cname * list Z) :=
  let hd := hdr (raw p) in
  let parts := split_idat (aux_chunks p) [] in
  let aux_pre := match parts with x :: _ => x | [] => [] end in
  let aux_post := match parts with _ :: t => t | [] => [] end in
  let specials := List.filter (write_special hd) aux_pre in
  [(name_IHDR, to_be32 (width hd) ++ to_be32 (height hd) ++
               [depth hd; png_header_code (ctype hd); 0; 0; if interlaced hd then 1 else 0])]
  ++ map as_pair (List.filter (fun c => negb (after_plte c)) aux_pre)
  ++ key_chunks hd
  ++ map as_pair specials
  ++ [(name_IDAT, idat_data p)]
  ++ frame_chunk_list (frames p) (lenZ (List.filter (fun c => cname_eqb (c_name c) name_fcTL) specials))
  ++ map as_pair (concat aux_post)
  ++ [(name_IEND, [])].

Definition serialize (cs : list (cname * list Z)) : list Z :=
  flat_map (fun c => write_png_block (fst c) (snd c)) cs.

Lemma serialize_cons c t : serialize (c :: t) = write_png_block (fst c) (snd c) ++ serialize t.
Proof. reflexivity. Qed.

Lemma write_frames_chunks fs : forall s, write_frames fs s = serialize (frame_chunk_list fs s).
Proof.
  induction fs as [|f t IH]; intros s; cbn [write_frames frame_chunk_list]; [reflexivity|].
  rewrite !serialize_cons, IH. reflexivity.
Qed.

Theorem output_is_serialize p : output p = PNG_SIG ++ serialize (output_chunks p).
Proof.
  unfold output, output_chunks, serialize.
  rewrite !flat_map_app. cbn [flat_map fst snd app]. rewrite !app_nil_r.
  rewrite !flat_map_map. unfold as_pair. cbn [fst snd].
  rewrite write_frames_chunks. unfold serialize.
  rewrite flat_map_concat.
  do 3 f_equal.
  unfold key_chunks. destruct (ctype (hdr (raw p))) as [[k|]|[[[r g] b]|]|pal| |]; cbn [flat_map fst snd app]; rewrite ?app_nil_r; try reflexivity.
  destruct (rposition_alpha pal 0 None); cbn [flat_map fst snd app]; rewrite ?app_nil_r; reflexivity.
Qed.

Definition chunk_wf (c : cname * list Z) : Prop :=
  length (fst c) = 4%nat /\ bytes_ok (fst c) /\ lenZ (snd c) < 2 ^ 31.

Lemma sbe32_to_be32 v r : 0 <= v < 2 ^ 32 -> sbe32 (to_be32 v ++ r) = v.
Proof. intros H. change (2 ^ 32) with 4294967296 in H. unfold to_be32, sbe32. cbn [app]. Z.div_mod_to_equations. lia. Qed.

Lemma log2_lt_32 a : 0 <= a < 2 ^ 32 -> Z.log2 a < 32.
Proof.
  intros H. destruct (Z.eq_dec a 0) as [->|Hne]; [cbn; lia|]. apply Z.log2_lt_pow2; lia.
Qed.

Lemma lxor_range a b : 0 <= a < 2 ^ 32 -> 0 <= b < 2 ^ 32 -> 0 <= Z.lxor a b < 2 ^ 32.
Proof.
  intros Ha Hb. assert (Hnn : 0 <= Z.lxor a b) by (apply Z.lxor_nonneg; lia). split; [exact Hnn|].
  destruct (Z.eq_dec (Z.lxor a b) 0) as [->|Hne]; [cbn; lia|].
  apply Z.log2_lt_pow2; [lia|].
  eapply Z.le_lt_trans; [apply Z.log2_lxor; lia|].
  apply Z.max_lub_lt; apply log2_lt_32; assumption.
Qed.

Lemma crc_bits_range n : forall c, 0 <= c < 2 ^ 32 -> 0 <= crc_bits n c < 2 ^ 32.
Proof.
  induction n as [|n IH]; intros c Hc; cbn [crc_bits]; [exact Hc|]. apply IH.
  assert (H1 : 0 <= c / 2 < 2 ^ 32) by (change (2 ^ 32) with 4294967296 in *; Z.div_mod_to_equations; lia).
  destruct (Z.odd c); [|exact H1].
  apply lxor_range; [exact H1|]. unfold crc_poly. cbn. lia.
Qed.

Lemma crc_table_range : Forall (fun v => 0 <= v < 2 ^ 32) crc_table.
Proof.
  unfold crc_table. apply Forall_forall. intros v Hv. apply in_map_iff in Hv. destruct Hv as [i [<- Hi]].
  apply in_seq in Hi. unfold crc_entry. apply crc_bits_range. change (2 ^ 32) with 4294967296. lia.
Qed.

Lemma crc_update_range c b : 0 <= c < 2 ^ 32 -> 0 <= crc_update crc_table c b < 2 ^ 32.
Proof.
  intros Hc. unfold crc_update. apply lxor_range.
  - pose proof crc_table_range as T. rewrite Forall_forall in T.
    set (i := Z.to_nat (Z.land (Z.lxor c b) 255)).
    destruct (nth_in_or_default i crc_table 0) as [Hin|Hd]; [apply T; exact Hin|rewrite Hd; change (2 ^ 32) with 4294967296; lia].
  - change (2 ^ 32) with 4294967296 in *. Z.div_mod_to_equations. lia.
Qed.

Lemma crc32_range data : 0 <= crc32 data < 2 ^ 32.
Proof.
  unfold crc32, crc32_with.
  assert (G : forall l c, 0 <= c < 2 ^ 32 -> 0 <= fold_left (crc_update crc_table) l c < 2 ^ 32).
  { induction l as [|b t IH]; intros c Hc; cbn [fold_left]; [exact Hc|]. apply IH. apply crc_update_range. exact Hc. }
  apply lxor_range; [apply G|]; change (2 ^ 32) with 4294967296; lia.
Qed.

Lemma parse_block f name data rest :
  length name = 4%nat -> lenZ data < 2 ^ 31 ->
  spec_parse_chunks (S f) (write_png_block name data ++ rest) =
    if list_eqb Z.eqb name spec_IEND
    then match rest with [] => Some [(name, data)] | _ => None end
    else match spec_parse_chunks f rest with Some t => Some ((name, data) :: t) | None => None end.
Proof.
  intros Hn Hd. destruct name as [|n1 [|n2 [|n3 [|n4 [|]]]]]; try discriminate. clear Hn.
  assert (Hlen0 : 0 <= lenZ data) by (unfold lenZ; lia). assert (P32 : 2 ^ 31 < 2 ^ 32) by (cbn; lia).
  unfold write_png_block. rewrite <- !app_assoc. cbn [spec_parse_chunks].
  rewrite sbe32_to_be32 by lia.
  (* the first eight bytes are explicit (length, name): what is cut off them is computed *)
  set (tail := data ++ to_be32 (crc32 ([n1; n2; n3; n4] ++ data)) ++ rest).
  assert (E1 : forall v (x : list Z), skipn 4 (to_be32 v ++ x) = x) by reflexivity.
  assert (E8 : skipn 8 (to_be32 (lenZ data) ++ [n1; n2; n3; n4] ++ tail) = tail) by reflexivity.
  assert (Ltail : (length data + 4 <= length tail)%nat) by (unfold tail; rewrite !app_length; cbn [length to_be32]; lia).
  assert (Lall : length (to_be32 (lenZ data) ++ [n1; n2; n3; n4] ++ tail) = (8 + length tail)%nat) by reflexivity.
  rewrite E1, E8, Lall. unfold lenZ at 2. rewrite Lall. cbn [app firstn].
  destruct (Nat.ltb_spec (8 + length tail) 12); [lia|]. destruct (Z.ltb_spec (lenZ data) 0); [lia|].
  destruct (Z.ltb_spec (Z.of_nat (8 + length tail)) (12 + lenZ data)); [unfold lenZ in *; lia|]. cbn [orb].
  unfold tail, lenZ. rewrite Nat2Z.id, firstn_app_exact, skipn_app_exact, E1, sbe32_to_be32 by apply crc32_range.
  rewrite Z.eqb_refl. reflexivity.
Qed.

Definition not_iend (c : cname * list Z) : Prop := fst c <> spec_IEND.

Theorem parse_serialize cs : Forall chunk_wf cs -> Forall not_iend cs ->
  forall fuel, (length cs < fuel)%nat ->
  spec_parse_chunks fuel (serialize (cs ++ [(spec_IEND, [])])) = Some (cs ++ [(spec_IEND, [])]).
Proof.
  (* in both cases the fuel is positive and the parser meets one written block *)
  induction cs as [|c t IH]; intros Hwf Hni fuel Hf; (destruct fuel as [|f]; [cbn in Hf; lia|]);
    cbn [app]; rewrite serialize_cons.
  - rewrite parse_block by (cbn; try reflexivity; lia). reflexivity.
  - inversion Hwf as [|? ? (H4 & _ & Hl) Ht]; subst. inversion Hni as [|? ? Hn Hnt]; subst.
    rewrite parse_block, list_eqb_Z_false by assumption. cbn [length] in Hf.
    rewrite IH; [destruct c; reflexivity|assumption|assumption|lia].
Qed.

Definition output_body (p : pngdata) : list (cname * list Z) :=
  let hd := hdr (raw p) in
  let parts := split_idat (aux_chunks p) [] in
  let aux_pre := match parts with x :: _ => x | [] => [] end in
  let aux_post := match parts with _ :: t => t | [] => [] end in
  let specials := List.filter (write_special hd) aux_pre in
  [(name_IHDR, to_be32 (width hd) ++ to_be32 (height hd) ++
               [depth hd; png_header_code (ctype hd); 0; 0; if interlaced hd then 1 else 0])]
  ++ map as_pair (List.filter (fun c => negb (after_plte c)) aux_pre)
  ++ key_chunks hd
  ++ map as_pair specials
  ++ [(name_IDAT, idat_data p)]
  ++ frame_chunk_list (frames p) (lenZ (List.filter (fun c => cname_eqb (c_name c) name_fcTL) specials))
  ++ map as_pair (concat aux_post).

Lemma output_chunks_body p : output_chunks p = output_body p ++ [(spec_IEND, [])].
Proof. unfold output_chunks, output_body. rewrite <- !app_assoc. reflexivity. Qed.

Lemma write_png_block_length n d : length (write_png_block n d) = (8 + length n + length d)%nat.
Proof. unfold write_png_block. rewrite !app_length. cbn [length to_be32]. lia. Qed.

Lemma serialize_length_ge cs : (length cs <= length (serialize cs))%nat.
Proof.
  induction cs as [|c t IH]; [cbn; lia|].
  rewrite serialize_cons, app_length, write_png_block_length. cbn [length]. lia.
Qed.

(* C02 (container): the specification's strict parser accepts the output and reads back exactly
   the chunk sequence written -- signature, lengths, CRCs, IEND last, nothing after it *)
Theorem output_parses p :
  Forall chunk_wf (output_body p) -> Forall not_iend (output_body p) ->
  spec_parse_png (output p) = Some (output_chunks p).
Proof.
  intros Hwf Hni. rewrite output_is_serialize. unfold spec_parse_png.
  (* the signature is explicit: the comparison of the first eight bytes is computed *)
  change (spec_parse_chunks (length (PNG_SIG ++ serialize (output_chunks p))) (serialize (output_chunks p)) = Some (output_chunks p)).
  rewrite output_chunks_body. apply parse_serialize; [exact Hwf|exact Hni|].
  pose proof (serialize_length_ge (output_body p ++ [(spec_IEND, [])])) as Hl.
  rewrite !app_length in *. cbn [length PNG_SIG] in *. lia.
Qed.

(* structure: IHDR (13 bytes) first, exactly one IDAT written by `output` itself, IEND last *)
Definition output_pre (p : pngdata) : list (cname * list Z) :=
  let parts := split_idat (aux_chunks p) [] in
  let aux_pre := match parts with x :: _ => x | [] => [] end in
  map as_pair (List.filter (fun c => negb (after_plte c)) aux_pre) ++ key_chunks (hdr (raw p))
  ++ map as_pair (List.filter (write_special (hdr (raw p))) aux_pre).
Definition output_post (p : pngdata) : list (cname * list Z) :=
  let parts := split_idat (aux_chunks p) [] in
  let aux_pre := match parts with x :: _ => x | [] => [] end in
  let aux_post := match parts with _ :: t => t | [] => [] end in
  frame_chunk_list (frames p) (lenZ (List.filter (fun c => cname_eqb (c_name c) name_fcTL) (List.filter (write_special (hdr (raw p))) aux_pre)))
  ++ map as_pair (concat aux_post).

Theorem output_structure p :
  output_chunks p =
    (name_IHDR, to_be32 (width (hdr (raw p))) ++ to_be32 (height (hdr (raw p))) ++
                [depth (hdr (raw p)); png_header_code (ctype (hdr (raw p))); 0; 0; if interlaced (hdr (raw p)) then 1 else 0])
    :: output_pre p ++ [(name_IDAT, idat_data p)] ++ output_post p ++ [(name_IEND, [])]
  /\ (forall kc, In kc (key_chunks (hdr (raw p))) -> In kc (output_pre p)).
Proof.
  split.
  - unfold output_chunks, output_pre, output_post. cbn zeta. cbn [app]. f_equal. rewrite <- !app_assoc. reflexivity.
  - intros kc Hk. unfold output_pre. cbn zeta. apply in_or_app. right. apply in_or_app. left. exact Hk.
Qed.
