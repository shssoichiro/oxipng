(* Proofs about the scan-line iterator model (C18): it emits exactly the Adam7 pass rows of the
   specification (empty passes omitted) with the specification's byte lengths, for every w, h >= 1. *)
From OxiVerif Require Import Base.Common Base.ListFacts Spec.Adam7 Model.Types Model.ScanLines Proofs.Adam7Geom.

(* the pixel-count view of the iterator: n steps from state st *)
Fixpoint iter_lines (w h : Z) (st : Z * Z) (n : nat) : list (Z * Z) :=
  match n with
  | O => []
  | S n => match next_px w h st with
           | Some (o, st') => o :: iter_lines w h st' n
           | None => []
           end
  end.

Lemma start_y0 p : In p passes7 -> pass_start p = y0 p.
Proof. intros H. destruct (passes7_cases p H) as [->|[->|[->|[->|[->|[->| ->]]]]]]; reflexivity. Qed.

Lemma factors_some p : In p passes7 -> factors p = Some (dx p, dy p).
Proof. intros H. destruct (passes7_cases p H) as [->|[->|[->|[->|[->|[->| ->]]]]]]; reflexivity. Qed.

Lemma ppl_spec w p : 0 <= w -> In p passes7 -> ppl w p (dx p) = pw w p.
Proof.
  intros Hw H. apply passes7_cases in H. unfold ppl, pw, cdiv. destruct (Z.leb_spec w (x0 p)).
  all: destruct H as [->|[->|[->|[->|[->|[->| ->]]]]]]; cbn [x0 dx] in *.
  all: try destruct (0 <? w mod _) eqn:?; try destruct (_ <=? w mod _) eqn:?; Z.div_mod_to_equations; lia.
Qed.

(* one `if` of skip: an empty pass k is left for the start of pass k + 1. The Rust source tests the size first;
   with the pass tested first a stage computes on a concrete pass. *)
Definition skip_stage (b : bool) (k : Z) (st : Z * Z) : Z * Z :=
  if (fst st =? k) && b then (k + 1, pass_start (k + 1)) else st.

Lemma skip_stages w h st :
  skip w h st =
  skip_stage (w =? 1) 6 (skip_stage (h <? 3) 5 (skip_stage (w <? 3) 4 (skip_stage (h <? 5) 3 (skip_stage (w <? 5) 2 st)))).
Proof. unfold skip, skip_stage. cbv zeta. rewrite !(andb_comm (fst _ =? _)). reflexivity. Qed.

Lemma skip_stage_keep b k st : (fst st = k -> b = false) -> skip_stage b k st = st.
Proof. unfold skip_stage. destruct (Z.eqb_spec (fst st) k) as [E|_]; [intros H; rewrite (H E)|]; reflexivity. Qed.

(* each test of skip is "pass k has no column" or "no row" *)
Lemma skip_active w h p row : 0 < pw w p -> 0 < ph h p -> skip w h (p,row) = (p,row).
Proof.
  intros Hpw Hph. apply pw_pos in Hpw. apply ph_pos in Hph.
  rewrite skip_stages.
  rewrite (skip_stage_keep _ 2), (skip_stage_keep _ 3), (skip_stage_keep _ 4), (skip_stage_keep _ 5), (skip_stage_keep _ 6);
    try reflexivity; cbn [fst]; intros ->; cbn [x0 y0] in *; lia.
Qed.

Lemma skip_inactive w h p : 1 <= w -> 1 <= h -> 1 <= p <= 6 -> ~ (x0 p < w /\ y0 p < h) ->
  skip w h (p, pass_start p) = skip w h (p + 1, pass_start (p + 1)).
Proof.
  intros Hw Hh Hp Hin. rewrite !skip_stages.
  assert (p=1\/p=2\/p=3\/p=4\/p=5\/p=6) as [->|[->|[->|[->|[->| ->]]]]] by lia; cbn [x0 y0] in Hin.
  - lia. (* pass 1 is never empty *)
  - replace (w <? 5) with true by lia. reflexivity.
  - replace (h <? 5) with true by lia. reflexivity.
  - replace (w <? 3) with true by lia. reflexivity.
  - replace (h <? 3) with true by lia. reflexivity.
  - replace (w =? 1) with true by lia. reflexivity.
Qed.

Lemma next_px_active w h p row : 1 <= w -> In p passes7 -> 0 < pw w p -> 0 < ph h p ->
  next_px w h (p, row) =
    Some ((p, pw w p), if h <=? row + dy p then (p + 1, pass_start (p + 1)) else (p, row + dy p)).
Proof.
  intros Hw Hp Hpw Hph. unfold next_px. rewrite (skip_active w h p row Hpw Hph). cbn [fst snd].
  rewrite (factors_some p Hp), (ppl_spec w p ltac:(lia) Hp). reflexivity.
Qed.

Lemma pass_run w h p : 1 <= w -> In p passes7 -> 0 < pw w p -> 0 < ph h p ->
  forall k row n, 0 <= row < h -> Z.of_nat k = cdiv (h - row) (dy p) ->
  iter_lines w h (p,row) (k + n) = repeat (p, pw w p) k ++ iter_lines w h (p + 1, pass_start (p+1)) n.
Proof.
  intros Hw Hp Hpw Hph.
  pose proof (proj2 (dx_dy_pos p)) as Hd.
  induction k as [|k IH]; intros row n Hrow Hk; [pose proof (cdiv_gt (dy p) (h - row) 0 Hd); lia|].
  cbn [Nat.add iter_lines]. rewrite next_px_active by auto.
  cbn [repeat app]. f_equal.
  pose proof (cdiv_gt (dy p) (h - row) 1 Hd) as C1.
  destruct (Z.leb_spec h (row + dy p)) as [Hlast|Hlast].
  - assert (k = 0)%nat by lia. subst k. reflexivity.
  - apply IH; [lia|].
    replace (h - row) with (h - (row + dy p) + dy p) in Hk by lia. rewrite cdiv_step in Hk by exact Hd. lia.
Qed.

Lemma lines_skip_eq w h st1 st2 n : skip w h st1 = skip w h st2 -> iter_lines w h st1 n = iter_lines w h st2 n.
Proof. intros H. destruct n; cbn [iter_lines]; [reflexivity|]. unfold next_px. rewrite H. reflexivity. Qed.

Lemma chain_step w h p rest : 1 <= w -> 1 <= h -> In p passes7 ->
  (p = 7 -> rest = []) ->
  iter_lines w h (p + 1, pass_start (p + 1)) (length rest) = rest ->
  iter_lines w h (p, pass_start p) (length (spec_pass_lines w h p ++ rest)) = spec_pass_lines w h p ++ rest.
Proof.
  intros Hw Hh Hp H7 IH. pose proof (proj1 (passes7_range p) Hp) as Hr.
  destruct (pass_consts p Hp) as (_ & _ & _ & Hy0).
  assert (D : (x0 p < w /\ y0 p < h) \/ ~ (x0 p < w /\ y0 p < h)) by lia. destruct D as [[Hx Hy]|Hn].
  - pose proof (proj2 (pw_pos w p) Hx) as Hpw. pose proof (proj2 (ph_pos h p) Hy) as Hph.
    unfold spec_pass_lines. destruct (Z.eqb_spec (pw w p) 0); [lia|].
    rewrite app_length, repeat_length.
    rewrite (pass_run w h p Hw Hp Hpw Hph (Z.to_nat (ph h p)) (pass_start p) (length rest)).
    + rewrite IH. reflexivity.
    + rewrite start_y0 by auto. lia.
    + rewrite Z2Nat.id, start_y0 by (auto; lia). apply ph_active, Hy.
  - (* an empty pass has no lines, and the iterator skips it; an empty pass 7 ends the image *)
    assert (E : spec_pass_lines w h p = []).
    { unfold spec_pass_lines, pw, ph. destruct (Z.leb_spec w (x0 p)); [reflexivity|].
      destruct (Z.leb_spec h (y0 p)); [|lia]. destruct (_ =? 0); reflexivity. }
    rewrite E. cbn [app].
    destruct (Z.eq_dec p 7) as [->|]; [rewrite H7 by auto; reflexivity|].
    rewrite (lines_skip_eq w h (p, pass_start p) (p+1, pass_start (p+1))); auto. apply skip_inactive; auto; lia.
Qed.

(* the passes from a on: passes7 is map Z.of_nat (seq 1 7) *)
Lemma lines_from w h : 1 <= w -> 1 <= h -> forall n a, (1 <= a)%nat -> (a + n = 8)%nat ->
  let ls := flat_map (spec_pass_lines w h) (map Z.of_nat (seq a n)) in
  iter_lines w h (Z.of_nat a, pass_start (Z.of_nat a)) (length ls) = ls.
Proof.
  intros Hw Hh. induction n as [|n IH]; intros a Ha E; cbn [seq map flat_map]; [reflexivity|].
  apply chain_step; [exact Hw|exact Hh|apply passes7_range; lia| |].
  - intros E7. assert (n = 0)%nat as -> by lia. reflexivity.
  - replace (Z.of_nat a + 1) with (Z.of_nat (S a)) by lia. apply IH; lia.
Qed.

Theorem lines_spec w h : 1 <= w -> 1 <= h ->
  iter_lines w h (1, 0) (length (spec_lines w h)) = spec_lines w h.
Proof. intros Hw Hh. exact (lines_from w h Hw Hh 7 1 (le_n 1) eq_refl). Qed.

Definition line_range (bits : Z) (hf : bool) (o : Z * Z) : range :=
  (line_len bits hf (snd o), Some (fst o), snd o).

Lemma line_len_pos bits hf n : 1 <= bits -> 1 <= n -> 0 < line_len bits hf n.
Proof. intros. unfold line_len, cdiv. destruct hf; Z.div_mod_to_equations; nia. Qed.

(* every line takes at least one byte, so the fuel of scan_ranges (the data length) is enough *)
Lemma sum_len_ge bits hf (l : list (Z * Z)) : 1 <= bits -> Forall (fun o => 1 <= snd o) l ->
  Z.of_nat (length l) <= sumZ (map (fun o => line_len bits hf (snd o)) l).
Proof.
  intros Hb H. induction H as [|x l Hx Hl IH]; cbn [length map sumZ fold_right]; [lia|].
  pose proof (line_len_pos bits hf (snd x) Hb Hx). unfold sumZ in IH. lia.
Qed.

Lemma ranges_go_lines bits hf w h : 1 <= bits ->
  forall ls st fuel, (length ls <= fuel)%nat -> iter_lines w h st (length ls) = ls -> Forall (fun o => 1 <= snd o) ls ->
  ranges_go fuel w h bits hf {| sl_pass := Some st; sl_left := sumZ (map (fun o => line_len bits hf (snd o)) ls) |}
  = Ok (map (line_range bits hf) ls).
Proof.
  intros Hb. induction ls as [|[p px] t IH]; intros st fuel Hf Hls Hpos.
  - destruct fuel; reflexivity.
  - cbn [length iter_lines] in Hls. destruct (next_px w h st) as [[o st']|] eqn:En; [|discriminate]. injection Hls as -> Ht.
    inversion Hpos as [|? ? Ho Hrest]; subst. cbn [snd] in Ho.
    pose proof (sum_len_ge bits hf t Hb Hrest) as Hge. pose proof (line_len_pos bits hf px Hb Ho) as Hlp.
    destruct fuel as [|fuel]; [cbn [length] in Hf; lia|].
    cbn [ranges_go map sumZ fold_right snd]. unfold ranges_next. cbn [sl_left sl_pass]. rewrite En.
    fold (sumZ (map (fun o => line_len bits hf (snd o)) t)). set (rest := sumZ _) in *.
    destruct (Z.eqb_spec (line_len bits hf px + rest) 0); [lia|].
    destruct (Z.ltb_spec (line_len bits hf px + rest) (line_len bits hf px)); [lia|].
    destruct (Z.leb_spec (line_len bits hf px) 0); [lia|].
    replace (line_len bits hf px + rest - line_len bits hf px) with rest by lia.
    subst rest. rewrite IH; auto. cbn [length] in Hf. lia.
Qed.

Lemma spec_lines_pos w h : Forall (fun o => 1 <= snd o) (spec_lines w h).
Proof.
  unfold spec_lines. apply Forall_forall. intros o Ho. apply in_flat_map in Ho.
  destruct Ho as [p [Hp Ho]]. unfold spec_pass_lines in Ho.
  destruct (Z.eqb_spec (pw w p) 0) as [|E]; [destruct Ho|]. apply repeat_spec in Ho. subst o. cbn [snd].
  pose proof (pw_nonneg w p). lia.
Qed.

Theorem scan_ranges_interlaced_spec (hd : ihdr) (hf : bool) :
  1 <= width hd -> 1 <= height hd -> 1 <= bpp hd -> interlaced hd = true ->
  scan_ranges hd hf (spec_raw_size (width hd) (height hd) (bpp hd) true hf)
  = Ok (map (fun l => (snd l + (if hf then 1 else 0), fst (fst l), snd (fst l)))
            (spec_layout (width hd) (height hd) (bpp hd) true)).
Proof.
  intros Hw Hh Hb Hil. unfold scan_ranges, sl_init. rewrite Hil.
  unfold spec_raw_size, spec_layout. rewrite !map_map. cbn [snd fst].
  pose proof (spec_lines_pos (width hd) (height hd)) as HP.
  pose proof (sum_len_ge (bpp hd) hf _ Hb HP) as Hge.
  apply ranges_go_lines; [exact Hb| |apply lines_spec; assumption|exact HP].
  unfold line_len, line_bytes in *. lia.
Qed.

Lemma ranges_go_plain bits hf w h0 : 1 <= bits -> 1 <= w ->
  forall (k : nat) fuel, (k <= fuel)%nat ->
  ranges_go fuel w h0 bits hf {| sl_pass := None; sl_left := Z.of_nat k * line_len bits hf w |}
  = Ok (repeat (line_len bits hf w, None, w) k).
Proof.
  intros Hb Hw. pose proof (line_len_pos bits hf w Hb Hw) as Hlp.
  induction k as [|k IH]; intros fuel Hf.
  - destruct fuel; reflexivity.
  - destruct fuel as [|fuel]; [lia|].
    cbn [ranges_go]. unfold ranges_next. cbn [sl_left sl_pass].
    destruct (Z.eqb_spec (Z.of_nat (S k) * line_len bits hf w) 0); [nia|].
    destruct (Z.ltb_spec (Z.of_nat (S k) * line_len bits hf w) (line_len bits hf w)); [nia|].
    destruct (Z.leb_spec (line_len bits hf w) 0); [lia|].
    replace (Z.of_nat (S k) * line_len bits hf w - line_len bits hf w) with (Z.of_nat k * line_len bits hf w) by lia.
    rewrite IH by lia. reflexivity.
Qed.

Theorem scan_ranges_plain_spec (hd : ihdr) (hf : bool) :
  1 <= width hd -> 1 <= height hd -> 1 <= bpp hd -> interlaced hd = false ->
  scan_ranges hd hf (spec_raw_size (width hd) (height hd) (bpp hd) false hf)
  = Ok (map (fun l => (snd l + (if hf then 1 else 0), fst (fst l), snd (fst l)))
            (spec_layout (width hd) (height hd) (bpp hd) false)).
Proof.
  intros Hw Hh Hb Hil. unfold scan_ranges, sl_init. rewrite Hil.
  unfold spec_raw_size, spec_layout. rewrite !map_repeat. cbn [snd fst].
  rewrite sumZ_repeat.
  change (line_bytes (bpp hd) (width hd) + (if hf then 1 else 0)) with (line_len (bpp hd) hf (width hd)).
  pose proof (line_len_pos (bpp hd) hf (width hd) Hb Hw) as Hlp.
  rewrite ranges_go_plain; auto. nia.
Qed.

Corollary scan_ranges_spec (hd : ihdr) (hf : bool) :
  1 <= width hd -> 1 <= height hd -> 1 <= bpp hd ->
  scan_ranges hd hf (spec_raw_size (width hd) (height hd) (bpp hd) (interlaced hd) hf)
  = Ok (map (fun l => (snd l + (if hf then 1 else 0), fst (fst l), snd (fst l)))
            (spec_layout (width hd) (height hd) (bpp hd) (interlaced hd))).
Proof.
  intros Hw Hh Hb. destruct (interlaced hd) eqn:Eil; [apply scan_ranges_interlaced_spec|apply scan_ranges_plain_spec]; assumption.
Qed.
