(* C15, last clause: images that are not 16-bit are treated exactly as without the switch - the whole optimisation is the same
   function of the input whatever scale_16 says. *)
From OxiVerif Require Import Base.Common Model.Types Model.Options Model.Headers Model.BitDepth Model.Color Model.PngData Model.Reductions
  Model.Optimize Proofs.EffectProofs.
Local Open Scope Z_scope.

Definition set_scale_16 (o : options) (b : bool) : options :=
  {| fix_errors := fix_errors o; force := force o; filter := filter o; interlace := interlace o; optimize_alpha := optimize_alpha o;
     bit_depth_reduction := bit_depth_reduction o; color_type_reduction := color_type_reduction o; palette_reduction := palette_reduction o;
     grayscale_reduction := grayscale_reduction o; idat_recoding := idat_recoding o; scale_16 := b;
     strip := strip o; deflate := deflate o; fast_evaluation := fast_evaluation o; has_timeout := has_timeout o |}.

Lemma reduced_16_none img fs : depth (hdr img) <> 16 -> reduced_bit_depth_16_to_8 img fs = None.
Proof. intros H. unfold reduced_bit_depth_16_to_8. destruct (Z.eqb_spec (depth (hdr img)) 16); [contradiction|reflexivity]. Qed.

Theorem perform_reductions_scale_irrelevant e o img b : depth (hdr img) <> 16 ->
  perform_reductions e (set_scale_16 o b) img = perform_reductions e o img.
Proof.
  intros Hd. unfold perform_reductions.
  change (s_interlace (set_scale_16 o b) img) with (s_interlace o img).
  destruct (s_interlace o img) as [st0|?|?] eqn:E0; cbn [bind]; try reflexivity.
  assert (D0 : depth (hdr (r_png st0)) <> 16) by (destruct (eff_s_interlace _ _ _ E0) as (_ & _ & D & _); congruence).
  unfold reduction_steps. cbn [run_steps].
  change (s_clean_alpha e (set_scale_16 o b) st0) with (s_clean_alpha e o st0).
  destruct (s_clean_alpha e o st0) as [st1|?|?] eqn:E1; cbn [bind]; try reflexivity.
  assert (D1 : depth (hdr (r_png st1)) <> 16).
  { unfold s_clean_alpha, guard in E1. destruct (optimize_alpha o); [|injection E1 as <-; exact D0].
    injection E1 as <-. destruct (negb (dl e SCleanAlpha)); cbn [r_png log_site]; [|exact D0].
    destruct (cleaned_alpha_channel (r_png st0)) as [x|] eqn:Ex; cbn [r_png set_png log_site]; [|exact D0].
    rewrite (eff_clean _ _ Ex). exact D0. }
  assert (E2 : s_16_to_8 e (set_scale_16 o b) st1 = s_16_to_8 e o st1).
  { unfold s_16_to_8, guard. change (bit_depth_reduction (set_scale_16 o b)) with (bit_depth_reduction o).
    destruct (bit_depth_reduction o); [|reflexivity]. cbn [r_png log_site]. rewrite !reduced_16_none by exact D1. reflexivity. }
  rewrite E2. reflexivity.
Qed.

Theorem optimize_raw_scale_irrelevant e o img ms b : depth (hdr img) <> 16 ->
  optimize_raw e (set_scale_16 o b) img ms = optimize_raw e o img ms.
Proof. intros Hd. unfold optimize_raw. rewrite perform_reductions_scale_irrelevant by exact Hd. reflexivity. Qed.

Lemma preprocess_set_scale e aux o b :
  preprocess_chunks e aux (set_scale_16 o b) = (fst (preprocess_chunks e aux o), set_scale_16 (snd (preprocess_chunks e aux o)) b).
Proof.
  unfold preprocess_chunks.
  change (strip (set_scale_16 o b)) with (strip o). change (idat_recoding (set_scale_16 o b)) with (idat_recoding o).
  change (deflate (set_scale_16 o b)) with (deflate o). change (grayscale_reduction (set_scale_16 o b)) with (grayscale_reduction o).
  (* of the options the ICC decision reads only strip, idat_recoding and deflate, which set_scale_16 leaves alone (the `change` lines above); set_scale_16 commutes with set_reductions by computation *)
  match goal with |- context [let '(a, g) := ?x in _] => destruct x as [aux1 allow_gray] end.
  destruct (negb allow_gray && grayscale_reduction o); destruct (has_chunk name_acTL aux1); reflexivity.
Qed.

Lemma recompress_frames_go_set_scale e o b hd f fs : forall i,
  recompress_frames_go e (set_scale_16 o b) hd f i fs = recompress_frames_go e o hd f i fs.
Proof.
  induction fs as [|fr t IH]; intros i; cbn [recompress_frames_go]; [reflexivity|]. rewrite IH. reflexivity.
Qed.

Lemma recompress_frames_set_scale e o b p f : recompress_frames e (set_scale_16 o b) p f = recompress_frames e o p f.
Proof.
  unfold recompress_frames. change (idat_recoding (set_scale_16 o b)) with (idat_recoding o).
  destruct (negb (idat_recoding o)); [reflexivity|]. destruct (frames p); [reflexivity|]. apply recompress_frames_go_set_scale.
Qed.

Theorem optimize_png_scale_irrelevant e p o b : depth (hdr (raw p)) <> 16 ->
  optimize_png e p (set_scale_16 o b) = optimize_png e p o.
Proof.
  intros Hd. unfold optimize_png. rewrite preprocess_set_scale.
  destruct (preprocess_chunks e (aux_chunks p) o) as [aux o']. cbn [fst snd raw idat_data aux_chunks frames].
  change (force (set_scale_16 o' b)) with (force o').
  rewrite optimize_raw_scale_irrelevant by exact Hd.
  destruct (optimize_raw e o' (raw p) _) as [[c|]|?|?]; cbn [bind]; try reflexivity.
  rewrite recompress_frames_set_scale. reflexivity.
Qed.

Lemma from_slice_loop_set_scale o b : forall fuel rest st,
  from_slice_loop fuel (set_scale_16 o b) rest st = from_slice_loop fuel o rest st.
Proof.
  induction fuel as [|f IH]; intros rest st; cbn [from_slice_loop]; [reflexivity|].
  change (fix_errors (set_scale_16 o b)) with (fix_errors o).
  destruct (parse_next_chunk rest (fix_errors o)) as [[[c rest']|]|?|?]; cbn [bind]; try reflexivity.
  change (from_slice_step (set_scale_16 o b) st c) with (from_slice_step o st c).
  destruct (from_slice_step o st c); cbn [bind]; try reflexivity. apply IH.
Qed.

Lemma from_slice_set_scale e bytes o b : from_slice e bytes (set_scale_16 o b) = from_slice e bytes o.
Proof. unfold from_slice. rewrite from_slice_loop_set_scale. reflexivity. Qed.

Theorem optimize_from_memory_scale_irrelevant e o bytes b :
  (forall p, from_slice e bytes o = Ok p -> depth (hdr (raw p)) <> 16) ->
  optimize_from_memory e (set_scale_16 o b) bytes = optimize_from_memory e o bytes.
Proof.
  intros Hd. unfold optimize_from_memory.
  rewrite from_slice_set_scale.
  destruct (from_slice e bytes o) as [p|?|?] eqn:Ep; cbn [bind]; try reflexivity.
  rewrite optimize_png_scale_irrelevant by (apply Hd; reflexivity). reflexivity.
Qed.
