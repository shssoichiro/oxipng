(* C10 file to file: the animation of the input file (APNG specification, Spec/Apng) and the animation of the written chunk
   sequence: same frames, same control fields, frame data unchanged or strictly smaller. *)
From OxiVerif Require Import Base.Common Base.ListFacts Spec.Decode Spec.DecodeFile Model.Types Model.Options Model.Headers Model.PngData
  Model.Optimize Spec.Apng Proofs.RobustProofs Proofs.ChunkProofs Proofs.ApngProofs Proofs.OutputProofs Proofs.InputParse Proofs.ContainerOk
  Proofs.ChunkFlow.
Local Open Scope Z_scope.

Definition sframe_of (f : frame) : sframe :=
  {| sf_w := f_width f; sf_h := f_height f; sf_x := f_x f; sf_y := f_y f; sf_delay_num := f_delay_num f; sf_delay_den := f_delay_den f;
     sf_dispose := f_dispose f; sf_blend := f_blend f; sf_default := false; sf_data := f_data f |}.
Definition is_fctl (c : chunk) : bool := cname_eqb (c_name c) name_fcTL.
Definition default_of (c : chunk) : sframe := sframe_of_fctl (c_data c) true.

Fixpoint seqs_ok (l : list chunk) (s : Z) : Prop :=
  match l with
  | [] => True
  | c :: t => (26 <= length (c_data c))%nat /\ sbe32 (c_data c) = s /\ seqs_ok t (s + 1)
  end.

Lemma seqs_ok_app l1 l2 s : seqs_ok (l1 ++ l2) s <-> seqs_ok l1 s /\ seqs_ok l2 (s + lenZ l1).
Proof.
  revert s. induction l1 as [|c t IH]; intros s; cbn [app seqs_ok].
  - unfold lenZ. cbn. replace (s + 0) with s by lia. tauto.
  - rewrite IH. unfold lenZ. cbn [length]. replace (s + 1 + Z.of_nat (length t)) with (s + Z.of_nat (S (length t))) by lia. tauto.
Qed.

Record rel (ss : apng_st) (ms : fs_state) : Prop := {
  r_seq : as_seq ss = fs_seq ms;
  r_idat : as_idat ss = negb (isnil (fs_idat ms));
  r_frames : as_frames ss = map sframe_of (fs_frames ms) ++ map default_of (List.filter is_fctl (fs_aux ms));
  r_aux : seqs_ok (rev (List.filter is_fctl (fs_aux ms))) 0;
  r_early : isnil (fs_idat ms) = true -> fs_seq ms = lenZ (List.filter is_fctl (fs_aux ms)) /\ fs_frames ms = []
}.

Lemma sbe16_be16_of l : (2 <= length l)%nat -> sbe16 l = be16_of l.
Proof. destruct l as [|a [|b t]]; cbn [length]; try lia. intros _. reflexivity. Qed.

Lemma sframe_of_from_fctl d f : frame_from_fctl d = Ok f -> sframe_of f = sframe_of_fctl d false.
Proof.
  unfold frame_from_fctl. destruct (Nat.ltb_spec (length d) 26); [discriminate|]. intros [= <-].
  unfold sframe_of, sframe_of_fctl. cbn [f_width f_height f_x f_y f_delay_num f_delay_den f_dispose f_blend f_data].
  rewrite !sbe32_be32_of, !sbe16_be16_of by (rewrite skipn_length; lia). reflexivity.
Qed.

Lemma cname_eqb_other n a b : cname_eqb n a = true -> cname_eqb a b = false -> cname_eqb n b = false.
Proof. intros H. apply cname_eqb_eq in H. rewrite H. trivial. Qed.

Definition keeps_animation (o : options) : Prop :=
  strip_keep (strip o) name_acTL = true /\ strip_keep (strip o) name_fcTL = true /\ strip_keep (strip o) name_fdAT = true.

Section Lockstep.
Variable o : options.
Hypothesis Hkeep : strip_keep (strip o) name_acTL = true /\ strip_keep (strip o) name_fcTL = true /\ strip_keep (strip o) name_fdAT = true.

Lemma frame_chunk_kept c : cname_eqb (c_name c) name_fcTL || cname_eqb (c_name c) name_fdAT = true -> kept0 o c = true.
Proof.
  destruct Hkeep as (K1 & K2 & K3). intros H. apply orb_true_iff in H. unfold kept0, key_name, anim_name, all_anim_kept, is_c2pa.
  destruct H as [H|H]; apply cname_eqb_eq in H; rewrite H, K1, K2, K3; reflexivity.
Qed.

(* of the fcTL chunks, those met before the image data go to the ancillary list *)
Lemma step_defaults ms c ms' : from_slice_step o ms c = Ok ms' ->
  List.filter is_fctl (fs_aux ms') = (if is_fctl c && isnil (fs_idat ms) then [c] else []) ++ List.filter is_fctl (fs_aux ms).
Proof.
  intros H. destruct (step_spec o ms c ms' H) as (-> & _). rewrite filter_app, filter_rev. f_equal.
  unfold is_fctl. destruct (cname_eqb (c_name c) name_IDAT) eqn:E1.
  - cbn [collect_aux]. rewrite E1. destruct (isnil (fs_idat ms)); cbn [app List.filter c_name]; rewrite (cname_eqb_other _ _ name_fcTL E1 eq_refl); reflexivity.
  - rewrite (collect_aux_one o _ c E1). unfold kept_at. destruct (cname_eqb (c_name c) name_fcTL) eqn:En.
    + rewrite (frame_chunk_kept c), (cname_eqb_other _ _ name_fdAT En eq_refl) by (rewrite En; reflexivity).
      destruct (isnil (fs_idat ms)); cbn; rewrite ?En; reflexivity.
    + destruct (_ && _); cbn; rewrite ?En; reflexivity.
Qed.

Lemma step_rel ss ms c ss' ms' :
  rel ss ms -> (named spec_IDAT c = true -> snd c <> []) ->
  from_slice_step o ms (as_chunk c) = Ok ms' -> apng_step ss c = Some ss' -> rel ss' ms'.
Proof.
  intros [R1 R2 R3 R4 R5] Hne Hm Hs. destruct c as [n d].
  pose proof (step_defaults ms _ ms' Hm) as Ea. destruct (step_spec o ms _ ms' Hm) as (_ & Ei & Ef). clear Hm.
  change (is_fctl (as_chunk (n, d))) with (cname_eqb n name_fcTL) in Ea. unfold as_chunk in Ea, Ei, Ef. cbn [fst snd c_name c_data] in Ea, Ei, Ef.
  unfold apng_step in Hs. change (named spec_fcTL (n, d)) with (cname_eqb n name_fcTL) in Hs.
  change (named spec_fdAT (n, d)) with (cname_eqb n name_fdAT) in Hs.
  change (named spec_IDAT (n, d)) with (cname_eqb n name_IDAT) in Hs, Hne. cbn [snd] in Hs, Hne.
  destruct (cname_eqb n name_fcTL || cname_eqb n name_fdAT) eqn:Efr.
  - rewrite (frame_chunk_kept {| c_name := n; c_data := d |} Efr) in Ef. destruct Ef as (_ & _ & Eq & Ef).
    assert (E1 : cname_eqb n name_IDAT = false).
    { apply orb_true_iff in Efr. destruct Efr as [E|E]; exact (cname_eqb_other _ _ name_IDAT E eq_refl). }
    rewrite E1 in Ei. destruct (cname_eqb n name_fcTL) eqn:En.
    + (* fcTL: stays in the ancillary list before the image data, opens a frame after it *)
      rewrite (cname_eqb_other _ _ name_fdAT En eq_refl) in Ef.
      destruct (Nat.ltb_spec (length d) 26) as [|L26]; [discriminate|].
      destruct (Z.eqb_spec (sbe32 d) (as_seq ss)) as [Eseq|]; [|discriminate]. injection Hs as <-.
      destruct (isnil (fs_idat ms)) eqn:Eie; cbn [negb andb app] in Ea, R2, Ef.
      * destruct (R5 eq_refl) as [Q1 Q2]. rewrite Q2 in *.
        constructor; cbn [as_seq as_idat as_frames]; rewrite ?Ei, ?Eq, ?Ef, ?Ea.
        -- lia.
        -- exact R2.
        -- rewrite R3, R2. reflexivity.
        -- cbn [rev]. apply seqs_ok_app. split; [exact R4|].
           cbn [seqs_ok c_data]. split; [exact L26|]. split; [|exact I]. rewrite Eseq, R1, Q1. unfold lenZ. rewrite rev_length. lia.
        -- intros _. split; [|reflexivity]. unfold lenZ in *. cbn [length]. lia.
      * destruct Ef as (f & Ef & Efr').
        constructor; cbn [as_seq as_idat as_frames]; rewrite ?Ei, ?Eq, ?Efr', ?Ea; cbn [app map].
        -- lia.
        -- exact R2.
        -- rewrite R3, (sframe_of_from_fctl _ _ Ef), R2. reflexivity.
        -- exact R4.
        -- discriminate.
    + (* fdAT: its data go to the frame opened last *)
      cbn [orb] in Efr. rewrite Efr in *. cbn [andb app] in Ea.
      destruct (Nat.ltb_spec (length d) 4) as [|L4]; [discriminate|].
      destruct (Z.eqb_spec (sbe32 d) (as_seq ss)) as [Eseq|]; [|discriminate]. cbn [negb] in Hs.
      destruct (as_frames ss) as [|sf st] eqn:Efs; [discriminate|].
      destruct (sf_default sf); cbn [orb] in Hs; [discriminate|].
      destruct (as_idat ss) eqn:Eid; cbn [negb] in Hs; [|discriminate]. injection Hs as <-.
      unfold push_fdat in Ef. destruct (fs_frames ms) as [|mf mt]; [discriminate|]. injection Ef as Ef.
      cbn [map app] in R3. injection R3 as R3a R3b.
      constructor; cbn [as_seq as_idat as_frames]; rewrite ?Ei, ?Eq, <- ?Ef, ?Ea.
      * lia.
      * exact R2.
      * cbn [map app]. rewrite R3a, R3b. reflexivity.
      * exact R4.
      * intros Hnil. rewrite Hnil in R2. discriminate.
  - rewrite andb_false_r in Ef. destruct Ef as [Eq Ef]. apply orb_false_iff in Efr. destruct Efr as [En Ed]. rewrite En, Ed in Hs. rewrite En in Ea.
    cbn [andb app] in Ea. destruct (cname_eqb n name_IDAT).
    + injection Hs as <-. destruct d; [destruct (Hne eq_refl eq_refl)|]. rewrite andb_false_r in Ei.
      constructor; cbn [as_seq as_idat as_frames]; rewrite ?Ei, ?Eq, ?Ef, ?Ea; auto. discriminate.
    + injection Hs as <-. constructor; rewrite ?Ei, ?Eq, ?Ef, ?Ea; assumption.
Qed.
End Lockstep.

Lemma apng_fold_app st a b : apng_fold st (a ++ b) = match apng_fold st a with Some st' => apng_fold st' b | None => None end.
Proof. revert st. induction a as [|c t IH]; intros st; cbn [app apng_fold]; [reflexivity|]. destruct (apng_step st c); [apply IH|reflexivity]. Qed.

Lemma fold_rel o (Hkeep : strip_keep (strip o) name_acTL = true /\ strip_keep (strip o) name_fcTL = true /\ strip_keep (strip o) name_fdAT = true) :
  forall cs ss ms ss' ms', rel ss ms -> Forall (fun c => named spec_IDAT c = true -> snd c <> []) cs ->
  fold_steps o ms (map as_chunk cs) = Ok ms' -> apng_fold ss cs = Some ss' -> rel ss' ms'.
Proof.
  induction cs as [|c t IH]; intros ss ms ss' ms' R Hne Hm Hs; cbn [map fold_steps apng_fold] in *.
  - injection Hm as <-. injection Hs as <-. exact R.
  - apply Forall_cons_iff in Hne. destruct Hne as [Hc Ht].
    destruct (from_slice_step o ms (as_chunk c)) as [ms1|?|?] eqn:E1; cbn [bind] in Hm; try discriminate.
    destruct (apng_step ss c) as [ss1|] eqn:E2; [|discriminate].
    apply (IH ss1 ms1 ss' ms'); auto. apply (step_rel o Hkeep ss ms c ss1 ms1); auto.
Qed.

Definition anim_free (c : cname * list Z) : Prop := named spec_fcTL c = false /\ named spec_fdAT c = false /\ named spec_IDAT c = false.

Lemma apng_step_other st c : anim_free c -> apng_step st c = Some st.
Proof. intros (H1 & H2 & H3). unfold apng_step. rewrite H1, H2, H3. reflexivity. Qed.

(* the animation the specification reads from the input file is: the fcTL chunks kept among the ancillary chunks (default image
   as a frame), then the parsed frames *)
Theorem from_slice_animation e o bytes p cs fr : keeps_animation o -> bytes_ok bytes ->
  from_slice e bytes o = Ok p -> spec_parse_png bytes = Some cs ->
  Forall (fun c => named spec_IDAT c = true -> snd c <> []) cs ->
  spec_apng_frames cs = Some fr ->
  fr = map default_of (List.filter is_fctl (aux_chunks p)) ++ map sframe_of (frames p) /\
  seqs_ok (List.filter is_fctl (aux_chunks p)) 0.
Proof.
  intros Hkeep Hok H Hparse Hne Hfr.
  destruct (from_slice_parsed e o bytes p cs Hok H Hparse) as (st & ih & hd & img & Efold & _ & _ & _ & _ & ->). cbn [aux_chunks frames].
  unfold spec_parse_png in Hparse. destruct (list_eqb Z.eqb (firstn 8 bytes) spec_signature); [|discriminate].
  destruct (spec_parse_last _ _ _ Hparse) as (body & dend & -> & _). rewrite removelast_last in Efold.
  unfold spec_apng_frames in Hfr. rewrite apng_fold_app in Hfr.
  destruct (apng_fold _ body) as [ss|] eqn:Es; [|discriminate].
  assert (R0 : rel {| as_seq := 0; as_idat := false; as_frames := [] |} fs_start) by (constructor; cbn; auto).
  apply Forall_app in Hne. destruct Hne as [Hne _].
  pose proof (fold_rel o Hkeep body _ _ _ _ R0 Hne Efold Es) as [_ _ R3 R4 _].
  cbn [apng_fold] in Hfr. rewrite apng_step_other in Hfr by (repeat split; reflexivity). injection Hfr as <-. split.
  - rewrite R3, rev_app_distr, <- !map_rev, filter_rev. reflexivity.
  - rewrite filter_rev. exact R4.
Qed.

Lemma fold_ignore l : forall st, Forall anim_free l -> apng_fold st l = Some st.
Proof. intros st H. induction H as [|c t Hc _ IH]; [reflexivity|]. cbn [apng_fold]. rewrite (apng_step_other st c Hc). exact IH. Qed.

Lemma apng_step_fctl st c : named spec_fcTL c = true -> (26 <= length (snd c))%nat -> sbe32 (snd c) = as_seq st ->
  apng_step st c
  = Some {| as_seq := as_seq st + 1; as_idat := as_idat st; as_frames := sframe_of_fctl (snd c) (negb (as_idat st)) :: as_frames st |}.
Proof.
  intros N L S. unfold apng_step. rewrite N. destruct (Nat.ltb_spec (length (snd c)) 26); [lia|]. rewrite S, Z.eqb_refl. reflexivity.
Qed.

(* the default-image fcTL chunks (and other chunks that follow PLTE), before the image data *)
Lemma fold_defaults l : forall st,
  Forall (fun c => cname_eqb (c_name c) name_fdAT = false /\ cname_eqb (c_name c) name_IDAT = false) l ->
  as_idat st = false -> seqs_ok (List.filter is_fctl l) (as_seq st) ->
  apng_fold st (map as_pair l)
  = Some {| as_seq := as_seq st + lenZ (List.filter is_fctl l); as_idat := false;
            as_frames := rev (map default_of (List.filter is_fctl l)) ++ as_frames st |}.
Proof.
  induction l as [|c t IH]; intros [s i fr] H Hi Hs; cbn [as_seq as_idat as_frames] in *; subst i.
  - cbn. rewrite Z.add_0_r. reflexivity.
  - apply Forall_cons_iff in H. destruct H as [[Hd Hid] Ht]. cbn [map apng_fold List.filter] in *.
    destruct (is_fctl c) eqn:Ef.
    + destruct Hs as (L & Sq & Hs'). rewrite apng_step_fctl by assumption. cbn [as_seq as_idat as_frames negb].
      rewrite IH by first [assumption|reflexivity]. cbn [as_seq as_frames map rev]. rewrite <- app_assoc. unfold lenZ. cbn [length].
      replace (s + 1 + Z.of_nat (length (List.filter is_fctl t))) with (s + Z.of_nat (S (length (List.filter is_fctl t)))) by lia. reflexivity.
    + rewrite (apng_step_other _ (as_pair c) (conj Ef (conj Hd Hid))). apply IH; first [assumption|reflexivity].
Qed.

Lemma sframe_of_fctl_data f s : frame_in_range f -> 0 <= s < 2 ^ 32 ->
  (26 <= length (fctl_data f s))%nat /\ sbe32 (fctl_data f s) = s /\
  sf_add (sframe_of_fctl (fctl_data f s) false) (f_data f) = sframe_of f.
Proof.
  intros Hr Hs. destruct (fctl_fields f s Hr Hs) as (L & E0 & E1 & E2 & E3 & E4 & E5 & E6 & E7 & E8).
  split; [rewrite L; apply le_n|]. split; [rewrite sbe32_be32_of by lia; exact E0|].
  unfold sf_add, sframe_of_fctl, sframe_of. cbn [sf_w sf_h sf_x sf_y sf_delay_num sf_delay_den sf_dispose sf_blend sf_default sf_data app].
  rewrite !sbe32_be32_of, !sbe16_be16_of by (rewrite skipn_length; lia). rewrite E1, E2, E3, E4, E5, E6, E7, E8. reflexivity.
Qed.

Lemma fdat_data_props f s : 0 <= s < 2 ^ 32 ->
  (4 <= length (fdat_data f s))%nat /\ sbe32 (fdat_data f s) = s /\ skipn 4 (fdat_data f s) = f_data f.
Proof.
  intros Hs. change (2 ^ 32) with 4294967296 in Hs. unfold fdat_data, to_be32. cbn [app length skipn sbe32]. repeat split; Z.div_mod_to_equations; lia.
Qed.

Lemma apng_step_fdat st d f t : (4 <= length d)%nat -> sbe32 d = as_seq st -> as_frames st = f :: t ->
  sf_default f = false -> as_idat st = true ->
  apng_step st (name_fdAT, d)
  = Some {| as_seq := as_seq st + 1; as_idat := as_idat st; as_frames := sf_add f (skipn 4 d) :: t |}.
Proof.
  intros L S F D I. unfold apng_step. change (named spec_fcTL (name_fdAT, d)) with false. change (named spec_fdAT (name_fdAT, d)) with true.
  cbv iota. cbn [snd]. destruct (Nat.ltb_spec (length d) 4); [lia|]. rewrite S, Z.eqb_refl, F, D, I. reflexivity.
Qed.

Lemma fold_frames fs : forall st, as_idat st = true -> Forall frame_in_range fs ->
  0 <= as_seq st -> as_seq st + 2 * lenZ fs < 2 ^ 32 ->
  apng_fold st (frame_chunk_list fs (as_seq st))
  = Some {| as_seq := as_seq st + 2 * lenZ fs; as_idat := true; as_frames := rev (map sframe_of fs) ++ as_frames st |}.
Proof.
  induction fs as [|f t IH]; intros [s i fr] Hi Hr H0 Hb; cbn [as_seq as_idat as_frames] in *; subst i.
  - cbn. rewrite Z.add_0_r. reflexivity.
  - apply Forall_cons_iff in Hr. destruct Hr as [Hf Ht]. unfold lenZ in Hb. cbn [length] in Hb.
    destruct (sframe_of_fctl_data f s Hf ltac:(lia)) as (L & Sq & A).
    destruct (fdat_data_props f (s + 1) ltac:(lia)) as (L2 & Sq2 & K2).
    cbn [frame_chunk_list apng_fold].
    rewrite apng_step_fctl by first [assumption|reflexivity]. cbn [as_seq as_idat as_frames negb snd].
    erewrite apng_step_fdat by first [eassumption|reflexivity]. cbn [as_seq as_idat as_frames]. rewrite K2, A.
    replace (s + 2) with (s + 1 + 1) by lia.
    pose proof (IH {| as_seq := s + 1 + 1; as_idat := true; as_frames := sframe_of f :: fr |} eq_refl Ht) as IH1. cbn [as_seq as_frames] in IH1.
    rewrite IH1 by (unfold lenZ; lia). cbn [map rev]. rewrite <- app_assoc. unfold lenZ. cbn [length].
    replace (s + 1 + 1 + 2 * Z.of_nat (length t)) with (s + 2 * Z.of_nat (S (length t))) by lia. reflexivity.
Qed.

Lemma key_chunks_anim_free hd : Forall anim_free (key_chunks hd).
Proof.
  unfold key_chunks. destruct (ctype hd) as [[k|]|[[[r g] b]|]|pal| |]; repeat constructor.
  destruct (rposition_alpha pal 0 None); repeat constructor.
Qed.

Definition no_frame_chunk (c : chunk) : Prop :=
  cname_eqb (c_name c) name_fcTL = false /\ cname_eqb (c_name c) name_fdAT = false /\ cname_eqb (c_name c) name_IDAT = false.

Lemma map_anim_free l : Forall no_frame_chunk l -> Forall anim_free (map as_pair l).
Proof. intros H. apply Forall_forall. intros x Hx. apply in_map_iff in Hx. destruct Hx as [c [<- Hc]]. rewrite Forall_forall in H. exact (H c Hc). Qed.

Lemma filter_fctl_special hd l : List.filter is_fctl (List.filter (write_special hd) l) = List.filter is_fctl l.
Proof.
  rewrite filter_filter. apply filter_ext. intros c. unfold is_fctl, write_special, after_plte.
  destruct (cname_eqb (c_name c) name_fcTL) eqn:E; [|apply andb_false_r].
  apply cname_eqb_eq in E. rewrite E. reflexivity.
Qed.

(* the animation of the written chunk sequence: the fcTL chunks kept before the image data (default image), then the frames *)
Theorem written_animation p pre m post :
  aux_chunks p = pre ++ m :: post ->
  Forall (fun c => cname_eqb (c_name c) name_fdAT = false /\ cname_eqb (c_name c) name_IDAT = false) pre ->
  cname_eqb (c_name m) name_IDAT = true -> Forall no_frame_chunk post ->
  seqs_ok (List.filter is_fctl pre) 0 -> Forall frame_in_range (frames p) ->
  lenZ (List.filter is_fctl pre) + 2 * lenZ (frames p) < 2 ^ 32 ->
  spec_apng_frames (output_chunks p) = Some (map default_of (List.filter is_fctl pre) ++ map sframe_of (frames p)).
Proof.
  intros E Hpre Hm Hpost Hseq Hfr Hb.
  rewrite (written_closed_form p pre m post E (Forall_impl _ (fun c H => proj2 H) Hpre) Hm (Forall_impl _ (fun c H => proj2 (proj2 H)) Hpost)).
  unfold spec_apng_frames. set (hd := hdr (raw p)).
  assert (Hsp : Forall (fun c => cname_eqb (c_name c) name_fdAT = false /\ cname_eqb (c_name c) name_IDAT = false) (List.filter (write_special hd) pre)).
  { apply Forall_filter. intros c Hc _. rewrite Forall_forall in Hpre. exact (Hpre c Hc). }
  cbn [apng_fold]. rewrite apng_step_other by (repeat split; reflexivity).
  assert (Hbp : Forall anim_free (map as_pair (List.filter (fun c => negb (after_plte c)) pre))).
  { apply map_anim_free, Forall_filter. intros c Hc Hn. rewrite Forall_forall in Hpre. split; [|exact (Hpre c Hc)].
    unfold after_plte in Hn. destruct (cname_eqb (c_name c) name_fcTL); [rewrite !orb_true_r in Hn; discriminate|reflexivity]. }
  rewrite apng_fold_app, fold_ignore by exact Hbp.
  rewrite apng_fold_app, fold_ignore by apply key_chunks_anim_free.
  rewrite apng_fold_app, fold_defaults by first [exact Hsp|reflexivity|rewrite filter_fctl_special; exact Hseq].
  change (List.filter (fun c : chunk => cname_eqb (c_name c) name_fcTL)) with (List.filter is_fctl). rewrite !filter_fctl_special.
  cbn [as_seq as_frames apng_fold Z.add]. rewrite app_nil_r.
  change (apng_step ?st (name_IDAT, idat_data p)) with (Some {| as_seq := as_seq st; as_idat := true; as_frames := as_frames st |}).
  cbn [as_seq as_frames]. rewrite apng_fold_app.
  pose proof (fold_frames (frames p) {| as_seq := lenZ (List.filter is_fctl pre); as_idat := true;
                                        as_frames := rev (map default_of (List.filter is_fctl pre)) |} eq_refl Hfr) as FF.
  cbn [as_seq as_frames] in FF. rewrite FF by first [exact Hb|unfold lenZ; lia].
  rewrite apng_fold_app, fold_ignore by (apply map_anim_free; exact Hpost).
  cbn [apng_fold]. rewrite apng_step_other by (repeat split; reflexivity). cbn [as_frames].
  rewrite rev_app_distr, !rev_involutive. reflexivity.
Qed.

Definition droppable (c : chunk) : Prop := is_fctl c = false /\ cname_eqb (c_name c) name_IDAT = false.
Definition benign (c : chunk) : Prop :=
  is_fctl c = false /\ cname_eqb (c_name c) name_fdAT = false /\ cname_eqb (c_name c) name_IDAT = false.

Inductive lrel : list chunk -> list chunk -> Prop :=
| lr_nil : lrel [] []
| lr_keep c l l' : lrel l l' -> lrel (c :: l) (c :: l')
| lr_drop c l l' : droppable c -> lrel l l' -> lrel (c :: l) l'
| lr_repl c y l l' : droppable c -> benign y -> lrel l l' -> lrel (c :: l) (y :: l').

Lemma lrel_refl l : lrel l l.
Proof. induction l; constructor; auto. Qed.

Lemma lrel_app a a' b b' : lrel a a' -> lrel b b' -> lrel (a ++ b) (a' ++ b').
Proof.
  induction 1 as [|c l l' _ IH|c l l' D _ IH|c y l l' D B _ IH]; intros Hb; cbn [app]; auto.
  - apply lr_keep; auto.
  - apply lr_drop; auto.
  - apply lr_repl; auto.
Qed.

Lemma lrel_filter (f : chunk -> bool) l l' : (forall c, f c = false -> droppable c) -> lrel l l' -> lrel l (List.filter f l').
Proof.
  intros H. induction 1 as [|c l l' _ IH|c l l' D _ IH|c y l l' D B _ IH]; cbn [List.filter].
  - constructor.
  - destruct (f c) eqn:E; [apply lr_keep; exact IH|apply lr_drop; auto].
  - apply lr_drop; assumption.
  - destruct (f y); [apply lr_repl|apply lr_drop]; assumption.
Qed.

Lemma lrel_fctl l l' : lrel l l' -> List.filter is_fctl l' = List.filter is_fctl l.
Proof.
  induction 1 as [|c l l' _ IH|c l l' [Hc _] _ IH|c y l l' [Hc _] [Hy _] _ IH]; cbn [List.filter]; rewrite ?Hc, ?Hy, ?IH; reflexivity.
Qed.

Lemma lrel_forall (Q : chunk -> Prop) l l' : lrel l l' -> (forall y, benign y -> Q y) -> Forall Q l -> Forall Q l'.
Proof.
  intros R HQ. induction R as [|c l l' _ IH|c l l' _ _ IH|c y l l' _ Hy _ IH]; intros H; auto.
  - apply Forall_cons_iff in H. destruct H. constructor; auto.
  - apply Forall_cons_iff in H. destruct H. auto.
  - apply Forall_cons_iff in H. destruct H. constructor; auto.
Qed.

Lemma lrel_shape pre m post l' : cname_eqb (c_name m) name_IDAT = true -> lrel (pre ++ m :: post) l' ->
  exists pre' post', l' = pre' ++ m :: post' /\ lrel pre pre' /\ lrel post post'.
Proof.
  intros Hm. revert l'. induction pre as [|c t IH]; intros l' R; cbn [app] in R.
  - (* the marker is not droppable: it is kept *)
    inversion R as [|? ? t R2|? ? ? [_ D] _|? ? ? ? [_ D] _]; subst; [|rewrite Hm in D; discriminate..].
    exists [], t. auto using lr_nil.
  - inversion R as [|? ? t' R2|? ? ? D R2|? y ? t' D B R2]; subst; destruct (IH _ R2) as (p' & q' & -> & Rp & Rq).
    + exists (c :: p'), q'. auto using lr_keep.
    + exists p', q'. auto using lr_drop.
    + exists (y :: p'), q'. auto using lr_repl.
Qed.

(* postprocess_chunks and the ICC decision only drop / replace harmless chunks *)
Lemma processed_benign c : processed (c_name c) = true -> benign c.
Proof.
  intros H. split; [exact (processed_other _ name_fcTL H eq_refl)|].
  split; [exact (processed_other _ name_fdAT H eq_refl)|exact (processed_other _ name_IDAT H eq_refl)].
Qed.

Lemma benign_droppable c : benign c -> droppable c.
Proof. intros (A & _ & B). split; assumption. Qed.

Lemma lrel_postprocess l aux hd orig : lrel l aux -> lrel l (postprocess_chunks aux hd orig).
Proof.
  rewrite postprocess_is_filter. apply lrel_filter. intros c H. exact (benign_droppable c (processed_benign c (pp_keep_false _ _ _ H))).
Qed.

Lemma postprocess_lrel aux hd orig : lrel aux (postprocess_chunks aux hd orig).
Proof. apply lrel_postprocess, lrel_refl. Qed.

Lemma preprocess_lrel e aux o : lrel aux (fst (preprocess_chunks e aux o)).
Proof.
  destruct (preprocess_aux_shape e aux o) as [->|(pre & c & post & -> & Hc & [->|(x & -> & Hx)])]; [apply lrel_refl| |];
    (apply lrel_app; [apply lrel_refl|]); assert (B : benign c) by (apply processed_benign; rewrite Hc; reflexivity).
  - apply lr_drop; [exact (benign_droppable c B)|apply lrel_refl].
  - apply lr_repl; [exact (benign_droppable c B)| |apply lrel_refl]. destruct Hx as [(i & ->)|(cc & -> & _)]; repeat split; reflexivity.
Qed.

Lemma be16_of_range l : bytes_ok l -> 0 <= be16_of l < 2 ^ 16.
Proof.
  intros H. change (2 ^ 16) with 65536. unfold be16_of. destruct l as [|a [|b t]]; try lia.
  apply bytes_ok_cons in H. destruct H as [Ha H]. apply bytes_ok_cons in H. destruct H as [Hb _].
  unfold be16, byte_ok in *. lia.
Qed.

Lemma frame_from_fctl_range d f : bytes_ok d -> frame_from_fctl d = Ok f -> frame_in_range f.
Proof.
  intros Hok H. unfold frame_from_fctl in H. destruct (Nat.ltb_spec (length d) 26) as [|L]; [discriminate|].
  match type of H with Ok ?x = _ => assert (E : f = x) by congruence end. rewrite E. clear H E.
  unfold frame_in_range. cbn [f_width f_height f_x f_y f_delay_num f_delay_den f_dispose f_blend].
  assert (Hn : forall k, (k < length d)%nat -> 0 <= nth k d 0 < 256).
  { intros k Hk. unfold bytes_ok in Hok. rewrite Forall_forall in Hok. apply Hok. apply nth_In. exact Hk. }
  assert (B32 : forall k, 0 <= be32_of (skipn k d) < 2 ^ 32).
  { intros k. split; [apply be32_of_nonneg|apply be32_of_lt]; apply bytes_ok_skipn; exact Hok. }
  assert (B16 : forall k, 0 <= be16_of (skipn k d) < 2 ^ 16) by (intros k; apply be16_of_range, bytes_ok_skipn; exact Hok).
  exact (conj (B32 4%nat) (conj (B32 8%nat) (conj (B32 12%nat) (conj (B32 16%nat) (conj (B16 20%nat) (conj (B16 22%nat)
          (conj (Hn 24%nat ltac:(lia)) (Hn 25%nat ltac:(lia))))))))).
Qed.

Lemma step_frames_range o st c st1 : bytes_ok (c_data c) -> from_slice_step o st c = Ok st1 ->
  Forall frame_in_range (fs_frames st) -> Forall frame_in_range (fs_frames st1).
Proof.
  intros Hok H HF. destruct (step_spec o st c st1 H) as (_ & _ & S).
  destruct (kept0 o c && _); [destruct S as (_ & _ & _ & S)|rewrite (proj2 S); exact HF].
  destruct (cname_eqb (c_name c) name_fdAT).
  - unfold push_fdat in S. destruct (fs_frames st) as [|f t]; [discriminate|]. injection S as <-.
    apply Forall_cons_iff in HF. constructor; [exact (proj1 HF)|exact (proj2 HF)].
  - destruct (isnil (fs_idat st)); [rewrite S; exact HF|]. destruct S as (f & Ef & ->).
    constructor; [exact (frame_from_fctl_range _ f Hok Ef)|exact HF].
Qed.

Lemma loop_frames_range o : forall fuel rest st st', bytes_ok rest -> from_slice_loop fuel o rest st = Ok st' ->
  Forall frame_in_range (fs_frames st) -> Forall frame_in_range (fs_frames st').
Proof.
  induction fuel as [|f IH]; intros rest st st' Hb H HF; [discriminate|]. cbn [from_slice_loop] in H.
  destruct (parse_next_chunk rest (fix_errors o)) as [[[c rest']|]|?|?] eqn:E; cbn [bind] in H; try discriminate.
  - destruct (from_slice_step o st c) as [st1|?|?] eqn:Es; cbn [bind] in H; try discriminate.
    destruct (parse_next_chunk_data _ _ _ _ Hb E) as (Hd & Hb' & _).
    exact (IH rest' st1 st' Hb' H (step_frames_range o st c st1 Hd Es HF)).
  - injection H as <-. exact HF.
Qed.

Lemma from_slice_frames_range e o bytes p : bytes_ok bytes -> from_slice e bytes o = Ok p -> Forall frame_in_range (frames p).
Proof.
  intros Hok H. destruct (from_slice_inv e bytes o p H) as (st & ih & hd & img & _ & El & _ & _ & _ & _ & ->).
  apply Forall_rev. exact (loop_frames_range o _ _ _ _ (bytes_ok_skipn 8 bytes Hok) El (Forall_nil _)).
Qed.

Lemma apng_fold_len cs : forall st st', apng_fold st cs = Some st' -> (length (as_frames st') <= length (as_frames st) + length cs)%nat.
Proof.
  induction cs as [|c t IH]; intros st st' H; cbn [apng_fold] in H; [injection H as <-; cbn; lia|].
  destruct (apng_step st c) as [st1|] eqn:E; [|discriminate]. apply IH in H. cbn [length].
  assert (length (as_frames st1) <= S (length (as_frames st)))%nat; [|lia].
  unfold apng_step in E. destruct (named spec_fcTL c).
  - destruct (_ <? _)%nat; [discriminate|]. destruct (negb _); [discriminate|]. injection E as <-. cbn [as_frames length]. lia.
  - destruct (named spec_fdAT c).
    + destruct (_ <? _)%nat; [discriminate|]. destruct (negb _); [discriminate|].
      destruct (as_frames st) as [|f fs]; [discriminate|]. destruct (_ || _); [discriminate|]. injection E as <-. cbn [as_frames length]. lia.
    + destruct (named spec_IDAT c); injection E as <-; cbn [as_frames]; lia.
Qed.

Lemma split_first_idat (l : list chunk) :
  Forall (fun c => cname_eqb (c_name c) name_IDAT = false) l \/
  exists before idat after, l = before ++ idat :: after /\ Forall (fun c => cname_eqb (c_name c) name_IDAT = false) before /\
                            cname_eqb (c_name idat) name_IDAT = true.
Proof.
  induction l as [|c t IH]; [left; constructor|].
  destruct (cname_eqb (c_name c) name_IDAT) eqn:E.
  - right. exists [], c, t. split; [reflexivity|]. split; [constructor|exact E].
  - destruct IH as [H|(b & i & a & -> & Hb & Hi)]; [left; constructor; auto|].
    right. exists (c :: b), i, a. split; [reflexivity|]. split; [constructor; auto|exact Hi].
Qed.

Definition frame_rel (a b : sframe) : Prop :=
  sf_w a = sf_w b /\ sf_h a = sf_h b /\ sf_x a = sf_x b /\ sf_y a = sf_y b /\ sf_delay_num a = sf_delay_num b /\
  sf_delay_den a = sf_delay_den b /\ sf_dispose a = sf_dispose b /\ sf_blend a = sf_blend b /\ sf_default a = sf_default b /\
  (sf_data b = sf_data a \/ lenZ (sf_data b) < lenZ (sf_data a)).

Lemma frame_rel_refl a : frame_rel a a.
Proof. unfold frame_rel. repeat split; auto. Qed.

Lemma kept_at_props o ie c : kept_at o ie c = true ->
  cname_eqb (c_name c) name_fdAT = false /\ cname_eqb (c_name c) name_IDAT = false /\ (ie = false -> is_fctl c = false).
Proof.
  unfold kept_at, is_fctl. intros H. apply andb_true_iff in H. destruct H as [H0 H].
  apply negb_true_iff, orb_false_iff in H. destruct H as [Hd Hf]. split; [exact Hd|]. split.
  - unfold kept0, key_name in H0. destruct (cname_eqb (c_name c) name_IDAT); [discriminate|reflexivity].
  - intros ->. rewrite andb_true_r in Hf. exact Hf.
Qed.

Lemma from_slice_first_idat e o bytes p cs : bytes_ok bytes -> from_slice e bytes o = Ok p -> spec_parse_png bytes = Some cs ->
  exists before idat after, map as_chunk (removelast cs) = before ++ idat :: after /\
    Forall (fun c => cname_eqb (c_name c) name_IDAT = false) before /\ cname_eqb (c_name idat) name_IDAT = true.
Proof.
  intros Hok Ep Hparse. destruct (split_first_idat (map as_chunk (removelast cs))) as [Hnone|Hsplit]; [exfalso|exact Hsplit].
  destruct (from_slice_parsed e o bytes p cs Hok Ep Hparse) as (st & ih & hd & img & Efold & Hid & _).
  destruct (fold_fields o _ _ _ Efold) as (F1 & _). rewrite (filter_none (is_name name_IDAT) _ Hnone) in F1. exact (Hid F1).
Qed.

Lemma parse_count bytes cs : bytes_ok bytes -> spec_parse_png bytes = Some cs -> (12 * length cs <= length bytes)%nat.
Proof.
  intros Hok Hparse. unfold spec_parse_png in Hparse. destruct (list_eqb Z.eqb (firstn 8 bytes) spec_signature); [|discriminate].
  destruct (loop_is_fold default_options (length bytes) (skipn 8 bytes) cs (bytes_ok_skipn 8 bytes Hok) Hparse) as [Hcnt _].
  rewrite skipn_length in Hcnt. lia.
Qed.

Lemma apng_frames_count cs fr : spec_apng_frames cs = Some fr -> (length fr <= length cs)%nat.
Proof.
  unfold spec_apng_frames. destruct (apng_fold _ cs) as [st|] eqn:Es; [|discriminate]. intros [= <-].
  apply apng_fold_len in Es. cbn [as_frames length] in Es. rewrite rev_length. lia.
Qed.

(* C10, file to file: the animation the APNG specification reads from the input and from the written chunk sequence *)
Theorem apng_file_to_file e o bytes out cs fr :
  keeps_animation o -> bytes_ok bytes -> lenZ bytes < 2 ^ 32 ->
  spec_parse_png bytes = Some cs ->
  Forall (fun c => named spec_IDAT c = true -> snd c <> []) cs ->
  spec_apng_frames cs = Some fr ->
  optimize_from_memory e o bytes = Ok out ->
  out = bytes \/
  exists p', out = output p' /\ output p' = PNG_SIG ++ serialize (output_chunks p') /\
    exists fr', spec_apng_frames (output_chunks p') = Some fr' /\ Forall2 frame_rel fr fr'.
Proof.
  intros Hkeep Hok Hlen Hparse Hne Hfr H.
  destruct (chunk_flow e o bytes out cs Hok Hparse H) as [->|(p & p' & Ep & _ & -> & Eser & Eaux & Eaux' & Hframes)]; [left; reflexivity|right].
  exists p'. split; [reflexivity|]. split; [exact Eser|].
  destruct (from_slice_animation e o bytes p cs fr Hkeep Hok Ep Hparse Hne Hfr) as [Efr Hseq].
  pose proof (from_slice_frames_range e o bytes p Hok Ep) as Hrange.
  (* the ancillary list of the input: the kept chunks before the first IDAT chunk, the marker, the kept chunks after it *)
  destruct (from_slice_first_idat e o bytes p cs Hok Ep Hparse) as (before & idat & after & El & Hb & Hi).
  assert (Hid : c_data idat <> []).
  { assert (Hin : In idat (map as_chunk (removelast cs))) by (rewrite El; apply in_elt).
    apply in_map_iff in Hin. destruct Hin as (x & <- & Hx). rewrite Forall_forall in Hne. exact (Hne x (in_removelast x cs Hx) Hi). }
  rewrite <- Eaux in Eaux'. rewrite El, (collect_aux_closed_form o before idat after Hb Hi Hid) in Eaux.
  set (pre := List.filter (kept_at o true) before) in *. set (post := List.filter (kept_at o false) after) in *.
  set (m := {| c_name := c_name idat; c_data := [] |}) in *.
  assert (Hpre : Forall (fun c => cname_eqb (c_name c) name_fdAT = false /\ cname_eqb (c_name c) name_IDAT = false) pre).
  { apply Forall_filter. intros c _ Hc. destruct (kept_at_props o true c Hc) as (A & B & _). auto. }
  assert (Hpost : Forall no_frame_chunk post).
  { apply Forall_filter. intros c _ Hc. destruct (kept_at_props o false c Hc) as (A & B & C). split; [exact (C eq_refl)|split; assumption]. }
  assert (Efc : List.filter is_fctl (aux_chunks p) = List.filter is_fctl pre).
  { rewrite Eaux, filter_app. cbn [List.filter]. unfold is_fctl at 2. apply cname_eqb_eq in Hi. cbn [m c_name]. rewrite Hi.
    rewrite (filter_none is_fctl post), app_nil_r; [reflexivity|]. eapply Forall_impl; [|exact Hpost]. intros c Hc. exact (proj1 Hc). }
  rewrite Efc in Efr, Hseq.
  (* the ancillary list of the result has the same shape *)
  assert (Hrel : lrel (pre ++ m :: post) (aux_chunks p')).
  { rewrite <- Eaux. destruct Eaux' as [->| ->]; [|apply lrel_postprocess]; apply preprocess_lrel. }
  destruct (lrel_shape pre m post _ Hi Hrel) as (pre' & post' & Eaux2 & Rpre & Rpost).
  assert (Hpre' : Forall (fun c => cname_eqb (c_name c) name_fdAT = false /\ cname_eqb (c_name c) name_IDAT = false) pre').
  { apply (lrel_forall _ pre pre' Rpre); [|exact Hpre]. intros y (_ & B2 & B3). auto. }
  (* no_frame_chunk and benign are the same predicate *)
  pose proof (lrel_forall _ post post' Rpost (fun y B => B) Hpost) as Hpost'.
  rewrite <- (lrel_fctl pre pre' Rpre) in Efr, Hseq.
  pose proof (Forall2_Forall_r _ _ frame_in_range _ _ Hframes Hrange (fun a b H => same_fields_in_range a b (proj1 H))) as Hrange'.
  assert (Hcount : lenZ (List.filter is_fctl pre') + 2 * lenZ (frames p') < 2 ^ 32).
  { pose proof (Forall2_length _ _ _ Hframes) as Hlf.
    pose proof (apng_frames_count cs fr Hfr) as Es. rewrite Efr, app_length, !map_length in Es.
    pose proof (parse_count bytes cs Hok Hparse) as Hcnt. clear -Es Hcnt Hlf Hlen. unfold lenZ in *. rewrite <- Hlf. change (2 ^ 32) with 4294967296 in *. lia. }
  exists (map default_of (List.filter is_fctl pre') ++ map sframe_of (frames p')). split.
  - exact (written_animation p' pre' m post' Eaux2 Hpre' Hi Hpost' Hseq Hrange' Hcount).
  - rewrite Efr. apply Forall2_app; [apply Forall2_same, frame_rel_refl|].
    apply Forall2_map_both. eapply Forall2_impl; [|exact Hframes]. intros a b [(S1 & S2 & S3 & S4 & S5 & S6 & S7 & S8) Hd].
    unfold frame_rel, sframe_of. cbn. repeat split; auto.
Qed.
