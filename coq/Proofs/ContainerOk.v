(* The container side conditions of the file-level theorems, derived from the input: what from_slice collects from a byte string
   of less than 2^31 - 9 bytes (and compressor answers as short) and what optimize_png writes back satisfy container_ok.
   Then optimize_png as "build a PngData, serialise it", the two ways it is built, and the file-to-file theorems of C01 / C03 / C11. *)
From OxiVerif Require Import Base.Common Base.ListFacts Spec.Adam7 Spec.Sem Spec.Decode Spec.DecodeFile Model.Types Model.Options Model.Headers
  Model.PngData Model.Optimize Proofs.Bridge Proofs.LiftColor Proofs.RobustProofs Proofs.EffectProofs Proofs.PipelineProofs Proofs.ChunkProofs Proofs.ApngProofs Proofs.OutputProofs
  Proofs.OutputDecode Proofs.LiftAlpha Proofs.InputParse Proofs.NoPanicParse Proofs.PipelineLossless Proofs.EmittedStream Proofs.FileToFile.
Local Open Scope Z_scope.

Definition name_ok (nm : cname) : Prop :=
  length nm = 4%nat /\ bytes_ok nm /\ nm <> name_IEND /\ nm <> name_PLTE /\ nm <> name_tRNS.

Definition chunk_ok (N : Z) (c : chunk) : Prop := name_ok (c_name c) /\ lenZ (c_data c) <= N.
Definition frame_ok (N : Z) (f : frame) : Prop := lenZ (f_data f) <= N.

Lemma chunks_ok_mono N M l : N <= M -> Forall (chunk_ok N) l -> Forall (chunk_ok M) l.
Proof. intros H. apply Forall_impl. intros c [Hn Hl]. split; [exact Hn|lia]. Qed.
Lemma frames_ok_mono N M l : N <= M -> Forall (frame_ok N) l -> Forall (frame_ok M) l.
Proof. intros H. apply Forall_impl. unfold frame_ok. intros f Hl. lia. Qed.

Lemma parse_next_chunk_name rest fx c rest' : bytes_ok rest -> parse_next_chunk rest fx = Ok (Some (c, rest')) ->
  length (c_name c) = 4%nat /\ bytes_ok (c_name c) /\ c_name c <> name_IEND.
Proof.
  unfold parse_next_chunk. intros Hb H.
  destruct (Nat.ltb_spec (length rest) 4); [discriminate|].
  destruct (Z.ltb_spec (lenZ rest) (12 + be32_of rest)) as [|Hfit]; [discriminate|].
  destruct (cname_eqb (firstn 4 (skipn 4 rest)) name_IEND) eqn:Ee; [discriminate|]. destruct (negb fx && _); [discriminate|].
  assert (Ec : c_name c = firstn 4 (skipn 4 rest)) by (injection H as <- _; reflexivity). rewrite Ec.
  pose proof (be32_of_nonneg rest Hb). unfold lenZ in Hfit.
  split; [rewrite firstn_length, skipn_length; lia|]. split; [apply bytes_ok_firstn; apply bytes_ok_skipn; exact Hb|].
  intros E. rewrite E in Ee. discriminate.
Qed.

Definition st_ok (N : Z) (st : fs_state) : Prop :=
  Forall (chunk_ok N) (fs_aux st) /\ Forall (frame_ok N) (fs_frames st) /\ lenZ (fs_idat st) <= N.

Lemma st_ok_mono N N' st : N <= N' -> st_ok N st -> st_ok N' st.
Proof. intros HN (A & F & I). split; [eapply chunks_ok_mono; eauto|split; [eapply frames_ok_mono; eauto|lia]]. Qed.

Lemma from_slice_step_ok o st c st1 N : st_ok N st -> 0 <= N ->
  length (c_name c) = 4%nat -> bytes_ok (c_name c) -> c_name c <> name_IEND ->
  from_slice_step o st c = Ok st1 -> st_ok (N + lenZ (c_data c)) st1.
Proof.
  intros Hs HN Hl Hb He H. set (D := lenZ (c_data c)). assert (HD : 0 <= D) by (unfold D, lenZ; lia).
  pose proof (st_ok_mono N (N + D) st ltac:(lia) Hs) as (A & F & I). destruct Hs as (_ & F0 & I0).
  pose proof (from_slice_step_spec o st c) as K. rewrite H in K. destruct K as (Ei & _ & _ & _ & Ea & Ef).
  split; [|split].
  - (* the list gains at most an empty marker named IDAT or the chunk itself, and then it is not a key chunk *)
    rewrite Ea. apply Forall_app. split; [|exact A].
    destruct (cname_eqb (c_name c) name_IDAT) eqn:E1.
    + destruct (fs_idat st); [|constructor]. constructor; [|constructor]. apply list_eqb_Z_spec in E1. split; [|cbn; lia].
      rewrite E1 in *. repeat split; auto; discriminate.
    + destruct (_ && negb (_ || _ && _)) eqn:K; [|constructor]. constructor; [|constructor]. split; [|unfold D; lia].
      repeat split; auto; intros E; rewrite E in K; discriminate K.
  - destruct (_ && (_ || _)); [|rewrite (proj2 Ef); exact F]. destruct Ef as (_ & _ & _ & Ef).
    destruct (cname_eqb (c_name c) name_fdAT).
    + (* the data of an fdAT chunk, less its sequence number, are appended to the last frame *)
      pose proof (skipn_length 4 (c_data c)) as Ls. set (dd := skipn 4 (c_data c)) in *. clearbody dd.
      destruct (fs_frames st) as [|f t]; [discriminate|]. injection Ef as <-.
      apply Forall_cons_iff in F0, F. constructor; [|apply F].
      unfold frame_ok in *. cbn [with_fdata f_data]. unfold D, lenZ in *. rewrite app_length. lia.
    + destruct (fs_idat st); [rewrite Ef; exact F|]. destruct Ef as (f & Ec & ->). constructor; [|exact F].
      unfold frame_from_fctl in Ec. destruct (length (c_data c) <? 26)%nat; [discriminate|]. injection Ec as <-. unfold frame_ok. cbn. lia.
  - rewrite Ei. destruct (cname_eqb (c_name c) name_IDAT); [|exact I]. unfold D, lenZ in *. rewrite app_length. lia.
Qed.

Lemma from_slice_loop_ok o : forall fuel rest st st' N, bytes_ok rest -> st_ok N st -> 0 <= N ->
  from_slice_loop fuel o rest st = Ok st' -> st_ok (N + lenZ rest) st'.
Proof.
  induction fuel as [|f IH]; intros rest st st' N Hb Hs HN H; [discriminate|]. cbn [from_slice_loop] in H.
  apply bind_Ok in H as ([[c rest']|] & E & H).
  - apply bind_Ok in H as (st1 & Es & H).
    destruct (parse_next_chunk_data _ _ _ _ Hb E) as (Hd & Hb' & Hlen).
    destruct (parse_next_chunk_name _ _ _ _ Hb E) as (Hn1 & Hn2 & Hn3).
    pose proof (from_slice_step_ok o st c st1 N Hs HN Hn1 Hn2 Hn3 Es) as Hs1.
    pose proof (IH rest' st1 st' (N + lenZ (c_data c)) Hb' Hs1 ltac:(unfold lenZ; lia) H) as Hf.
    eapply st_ok_mono; [|exact Hf]. unfold lenZ. lia.
  - injection H as <-. eapply st_ok_mono; [|exact Hs]. unfold lenZ. lia.
Qed.

Definition png_ok (N : Z) (p : pngdata) : Prop :=
  Forall (chunk_ok N) (aux_chunks p) /\ Forall (frame_ok N) (frames p) /\ lenZ (idat_data p) <= N.

Lemma be32_of_lt l : bytes_ok l -> be32_of l < 2 ^ 32.
Proof.
  intros H. unfold be32_of. destruct l as [|a [|b [|c0 [|d t]]]]; try (cbn; lia).
  apply bytes_ok_cons in H. destruct H as [Ha H]. apply bytes_ok_cons in H. destruct H as [Hb H].
  apply bytes_ok_cons in H. destruct H as [Hc H]. apply bytes_ok_cons in H. destruct H as [Hd H].
  unfold be32, byte_ok in *. change (2 ^ 32) with 4294967296. lia.
Qed.

Theorem from_slice_png_ok e o bytes p : bytes_ok bytes -> from_slice e bytes o = Ok p ->
  png_ok (lenZ bytes) p /\ 0 <= width (hdr (raw p)) < 2 ^ 32 /\ 0 <= height (hdr (raw p)) < 2 ^ 32.
Proof.
  intros Hok H. destruct (from_slice_inv _ _ _ _ H) as (st & ih & hd & img & _ & Eloop & _ & Eih & Ehd & Eimg & ->).
  assert (Hsk : bytes_ok (skipn 8 bytes)) by (apply bytes_ok_skipn; exact Hok).
  assert (Hst : st_ok (lenZ bytes) st).
  { apply (st_ok_mono (0 + lenZ (skipn 8 bytes))); [unfold lenZ; rewrite skipn_length; lia|].
    refine (from_slice_loop_ok o _ _ _ _ 0 Hsk _ (Z.le_refl 0) Eloop). split; [constructor|split; [constructor|cbn; lia]]. }
  destruct Hst as (A & F & I).
  pose proof (proj1 (loop_facts o _ _ _ _ Hsk Eloop) ltac:(intros ? [=]) ih Eih) as Hihok.
  destruct (parse_ihdr_fields _ _ _ _ Ehd) as (Ew & Eh & _).
  unfold png_ok. cbn [raw aux_chunks frames idat_data]. rewrite (png_image_new_hdr _ _ _ _ Eimg), Ew, Eh. split; [|split].
  - split; [apply Forall_rev; exact A|split; [apply Forall_rev; exact F|exact I]].
  - split; [apply be32_of_nonneg; exact Hihok|apply be32_of_lt; exact Hihok].
  - split; [apply be32_of_nonneg; apply bytes_ok_skipn; exact Hihok|apply be32_of_lt; apply bytes_ok_skipn; exact Hihok].
Qed.

Lemma remove_nth_app (pre : list chunk) c post : remove_nth_chunk (length pre) (pre ++ c :: post) = pre ++ post.
Proof.
  unfold remove_nth_chunk. rewrite firstn_app, Nat.sub_diag, firstn_all, app_nil_r. cbn [firstn].
  replace (S (length pre)) with (length pre + 1)%nat by lia. rewrite skipn_app, skipn_all2 by lia.
  replace (length pre + 1 - length pre)%nat with 1%nat by lia. reflexivity.
Qed.

Lemma preprocess_aux_shape e aux o :
  fst (preprocess_chunks e aux o) = aux \/
  exists pre c post, aux = pre ++ c :: post /\ c_name c = name_iCCP /\
    (fst (preprocess_chunks e aux o) = pre ++ post \/
     exists x, fst (preprocess_chunks e aux o) = pre ++ x :: post /\
       ((exists i, x = {| c_name := name_sRGB; c_data := [i] |}) \/
        exists cc, x = {| c_name := name_iCCP; c_data := [105; 99; 99; 0; 0] ++ cc |} /\ lenZ cc < lenZ (c_data c))).
Proof.
  rewrite preprocess_aux. unfold apply_icc_decision, icc_decide.
  destruct (chunk_position name_iCCP aux 0) as [idx|] eqn:Ep; [|left; reflexivity].
  destruct (chunk_position_split _ _ _ _ Ep) as (pre & c & post & -> & -> & Hc). cbn [Nat.add]. apply cname_eqb_eq in Hc.
  destruct (may_replace_iccp o && has_chunk name_sRGB (pre ++ c :: post)).
  - right. exists pre, c, post. rewrite remove_nth_app. auto.
  - rewrite nth_error_app2, Nat.sub_diag by lia. cbn [nth_error].
    destruct (extract_icc e c) as [icc|]; [|left; reflexivity].
    destruct (if may_replace_iccp o then srgb_rendering_intent icc else None) as [i|].
    + right. exists pre, c, post. rewrite set_nth_app. split; [reflexivity|split; [exact Hc|right]].
      eexists. split; [reflexivity|left; exists i; reflexivity].
    + destruct (idat_recoding o); [|left; reflexivity].
      unfold make_iccp, deflate_capped. destruct (Z.ltb_spec (lenZ (c_data c) - 1) (lenZ (z_deflate e (deflate o) icc))); cbn [bind]; [left; reflexivity|].
      right. exists pre, c, post. rewrite set_nth_app. split; [reflexivity|split; [exact Hc|right]].
      eexists. split; [reflexivity|right; eexists; split; [reflexivity|lia]].
Qed.

(* so whatever is counted or selected among the chunks by a test that is false on iCCP and sRGB chunks is untouched *)
Lemma preprocess_keeps_filter (f : chunk -> bool) e aux o : (forall c, c_name c = name_iCCP \/ c_name c = name_sRGB -> f c = false) ->
  List.filter f (fst (preprocess_chunks e aux o)) = List.filter f aux.
Proof.
  intros N. destruct (preprocess_aux_shape e aux o) as [->|(pre & c & post & -> & Hc & Hres)]; [reflexivity|].
  rewrite filter_app. cbn [List.filter]. rewrite (N c (or_introl Hc)).
  destruct Hres as [->|(x & -> & Hx)]; rewrite filter_app; [reflexivity|]. cbn [List.filter]. rewrite (N x); [reflexivity|].
  destruct Hx as [[i ->]|(cc & -> & _)]; [right|left]; reflexivity.
Qed.

Lemma preprocess_chunks_ok e aux o N : 0 <= N -> Forall (chunk_ok N) aux -> Forall (chunk_ok (N + 5)) (fst (preprocess_chunks e aux o)).
Proof.
  intros HN H.
  destruct (preprocess_aux_shape e aux o) as [->|(pre & c & post & -> & _ & Hres)]; [exact (chunks_ok_mono N (N + 5) _ ltac:(lia) H)|].
  apply Forall_app in H. destruct H as [Hpre H]. apply Forall_cons_iff in H. destruct H as [[_ Hc] Hpost].
  apply (chunks_ok_mono N (N + 5)) in Hpre, Hpost; try lia.
  destruct Hres as [->|(x & -> & Hx)]; apply Forall_app; (split; [exact Hpre|]); [exact Hpost|]. constructor; [|exact Hpost].
  destruct Hx as [[i ->]|(cc & -> & Hcc)]; (split; [repeat split; try discriminate; cbn; repeat constructor; unfold byte_ok; lia|]).
  - cbn. lia.
  - cbn [c_data app]. unfold lenZ in *. cbn [length]. lia.
Qed.

Lemma postprocess_chunks_ok aux hd orig N : Forall (chunk_ok N) aux -> Forall (chunk_ok N) (postprocess_chunks aux hd orig).
Proof. apply incl_Forall. exact (postprocess_sublist aux hd orig). Qed.

Lemma recompress_frames_ok e o p f fr N : Forall (frame_ok N) (frames p) -> recompress_frames e o p f = Ok fr -> Forall (frame_ok N) fr.
Proof.
  intros F H. apply recompress_frames_top in H.
  induction H as [|a b ta tb [_ Hab] _ IH]; [constructor|]. apply Forall_cons_iff in F. destruct F as [Ha Hta].
  constructor; [|apply IH; exact Hta]. unfold frame_ok in *. destruct Hab as [->|Hlt]; lia.
Qed.

Lemma split_idat_forall (P : chunk -> Prop) : forall l cur, Forall P cur ->
  Forall (fun c => cname_eqb (c_name c) name_IDAT = false -> P c) l -> Forall (Forall P) (split_idat l cur).
Proof.
  induction l as [|a t IH]; intros cur Hc Hl; cbn [split_idat]; [constructor; [apply Forall_rev; exact Hc|constructor]|].
  apply Forall_cons_iff in Hl. destruct Hl as [Ha Ht]. destruct (cname_eqb (c_name a) name_IDAT) eqn:E.
  - constructor; [apply Forall_rev; exact Hc|apply IH; [constructor|exact Ht]].
  - apply IH; [constructor; [apply Ha; reflexivity|exact Hc]|exact Ht].
Qed.

Lemma chunk_ok_wf N c : chunk_ok N c -> N < 2 ^ 31 -> chunk_wf (as_pair c) /\ not_iend (as_pair c) /\
  (cname_eqb (c_name c) name_IDAT = false -> not_key (as_pair c)).
Proof.
  intros [(H1 & H2 & H3 & H4 & H5) Hl] HN. unfold chunk_wf, not_iend, not_key, as_pair, named. cbn [fst snd]. repeat split; auto; try lia.
  - destruct (list_eqb Z.eqb (c_name c) spec_PLTE) eqn:E; [apply list_eqb_Z_spec in E; contradiction|reflexivity].
  - destruct (list_eqb Z.eqb (c_name c) spec_tRNS) eqn:E; [apply list_eqb_Z_spec in E; contradiction|reflexivity].
Qed.

(* the chunks `output` makes itself have constant names: what is asked of a name is decided by evaluation *)
Definition name_okb (nm : cname) : bool := (length nm =? 4)%nat && bytes_okb nm && negb (cname_eqb nm name_IEND).

Lemma name_okb_wf nm d : name_okb nm = true -> lenZ d < 2 ^ 31 -> chunk_wf (nm, d) /\ not_iend (nm, d).
Proof.
  unfold name_okb. intros H Hd. apply andb_true_iff in H. destruct H as [H H3]. apply andb_true_iff in H. destruct H as [H1 H2].
  split; [split; [apply Nat.eqb_eq; exact H1|split; [apply bytes_okb_spec; exact H2|exact Hd]]|].
  intros E. cbn [fst] in E. rewrite E in H3. discriminate.
Qed.

Lemma frame_chunks_ok N fs : Forall (frame_ok N) fs -> N + 4 < 2 ^ 31 -> forall s,
  Forall (fun c => chunk_wf c /\ not_iend c /\ not_key c) (frame_chunk_list fs s).
Proof.
  intros H HN. induction H as [|f t Hf _ IH]; intros s; cbn [frame_chunk_list]; [constructor|].
  destruct (name_okb_wf name_fcTL (fctl_data f s) eq_refl) as [W1 W2];
    [unfold fctl_data, lenZ; rewrite !app_length; cbn [length to_be32 to_be16]; lia|].
  destruct (name_okb_wf name_fdAT (fdat_data f (s + 1)) eq_refl) as [W3 W4];
    [unfold fdat_data, frame_ok, lenZ in *; rewrite app_length; cbn [length to_be32]; lia|].
  constructor; [|constructor; [|apply IH]]; (split; [assumption|split; [assumption|repeat split; reflexivity]]).
Qed.

Lemma key_chunks_ok hd : wf_ctype (ctype hd) (depth hd) ->
  Forall (fun c => chunk_wf c /\ not_iend c) (key_chunks hd).
Proof.
  intros Hwf. unfold key_chunks.
  assert (G : forall l : list rgba8, length (flat_map (fun c : rgba8 => let '(r, g, b, _) := c in [r; g; b]) l) = (3 * length l)%nat).
  { induction l as [|[[[? ?] ?] ?] t IH]; [reflexivity|]. cbn [flat_map length app]. rewrite IH. lia. }
  destruct (ctype hd) as [[k|]|[[[r g] b]|]|pal| |]; cbn [wf_ctype] in Hwf; repeat apply Forall_cons; try apply Forall_nil;
    try (apply name_okb_wf; [reflexivity|]).
  - cbn. lia.
  - cbn. lia.
  - destruct Hwf as [_ Hl]. unfold lenZ. rewrite G. lia.
  - destruct (rposition_alpha pal 0 None) as [last|]; constructor; [|constructor]. apply name_okb_wf; [reflexivity|].
    destruct Hwf as [_ Hl]. unfold lenZ. rewrite map_length, firstn_length. lia.
Qed.

Lemma legal_depth_le16 c d : depth_legal (spec_color_of c) d = true -> 1 <= d <= 16.
Proof. destruct c; cbn [spec_color_of depth_legal]; intros H; repeat (apply orb_true_iff in H; destruct H as [H|H]); apply Z.eqb_eq in H; lia. Qed.

Theorem container_ok_of_parts N p : png_ok N p -> N + 4 < 2 ^ 31 ->
  0 <= width (hdr (raw p)) < 2 ^ 32 -> 0 <= height (hdr (raw p)) < 2 ^ 32 ->
  wf (raw p) -> depth_legal (spec_color_of (ctype (hdr (raw p)))) (depth (hdr (raw p))) = true ->
  container_ok p.
Proof.
  intros (A & F & I) HN Hw Hh [_ Hwfc] Hlegal. pose proof (legal_depth_le16 _ _ Hlegal) as Hd16.
  set (P := fun c : cname * list Z => chunk_wf c /\ not_iend c /\ not_key c).
  set (Q := fun c : cname * list Z => chunk_wf c /\ not_iend c).
  assert (PQ : forall l, Forall P l -> Forall Q l) by (intros l; apply Forall_impl; unfold P, Q; tauto).
  set (parts := split_idat (aux_chunks p) []).
  assert (Hparts : Forall (Forall (fun c => P (as_pair c))) parts).
  { apply split_idat_forall; [constructor|]. eapply Forall_impl; [|exact A].
    intros c Hc Hi. destruct (chunk_ok_wf N c Hc ltac:(lia)) as (W1 & W2 & W3). exact (conj W1 (conj W2 (W3 Hi))). }
  set (aux_pre := match parts with x :: _ => x | [] => [] end). set (aux_post := match parts with _ :: t => t | [] => [] end).
  assert (Gpre : forall f, Forall P (map as_pair (List.filter f aux_pre))).
  { intros f. apply Forall_map. apply (incl_Forall (incl_filter f aux_pre)). destruct Hparts; [constructor|assumption]. }
  assert (Gpost : Forall P (map as_pair (concat aux_post))).
  { apply Forall_map, Forall_concat. destruct Hparts; [constructor|assumption]. }
  pose proof (frame_chunks_ok N (frames p) F HN) as Gfr. fold P in Gfr.
  assert (Hbody : Forall Q (output_body p)).
  { unfold output_body. fold parts aux_pre aux_post. repeat (apply Forall_app; split); auto using key_chunks_ok.
    - constructor; [|constructor]. apply name_okb_wf; [reflexivity|]. unfold lenZ. rewrite !app_length. cbn [length to_be32]. lia.
    - constructor; [|constructor]. apply name_okb_wf; [reflexivity|lia]. }
  apply Forall_and_inv in Hbody. split; [apply Hbody|]. split; [apply Hbody|]. split; [|split; [lia|]].
  - (* a key fits the samples, which have at most 16 bits *)
    split; [exact Hw|]. split; [exact Hh|].
    assert (2 ^ depth (hdr (raw p)) <= 2 ^ 16) by (apply Z.pow_le_mono_r; lia).
    destruct (ctype (hdr (raw p))) as [[k|]|[[[r g] b]|]|pal| |]; cbn [wf_ctype] in Hwfc; auto; lia.
  - unfold aux_written, output_post. fold parts aux_pre aux_post.
    assert (PK : forall l, Forall P l -> Forall not_key l) by (intros l; apply Forall_impl; unfold P; tauto).
    repeat (apply Forall_app; split); auto.
Qed.

Definition optimize_png_data (e : env) (p : pngdata) (o : options) : res pngdata :=
  let '(aux, o') := preprocess_chunks e (aux_chunks p) o in
  let p0 := {| raw := raw p; idat_data := idat_data p; aux_chunks := aux; frames := frames p |} in
  let max_size := if force o' then None else Some (estimated_output_size (raw p0) (idat_data p0)) in
  do r <- optimize_raw e o' (raw p0) max_size;
  match r with
  | Some res_ =>
      let p1 := {| raw := c_image res_; idat_data := c_cdata res_; aux_chunks := aux; frames := frames p0 |} in
      do fr <- recompress_frames e o' p1 (c_filter res_);
      Ok {| raw := c_image res_; idat_data := c_cdata res_;
            aux_chunks := postprocess_chunks aux (hdr (c_image res_)) (hdr (raw p0)); frames := fr |}
  | None => Ok p0
  end.

Lemma optimize_png_split e p o : optimize_png e p o = do p' <- optimize_png_data e p o; Ok (output p').
Proof.
  unfold optimize_png, optimize_png_data. destruct (preprocess_chunks e (aux_chunks p) o) as [aux o']. cbn [raw idat_data frames].
  destruct (optimize_raw e o' (raw p) _) as [[c|]|?|?]; reflexivity.
Qed.

Lemma optimize_png_data_cases e p o p' : optimize_png_data e p o = Ok p' ->
  let aux := fst (preprocess_chunks e (aux_chunks p) o) in
  let o' := snd (preprocess_chunks e (aux_chunks p) o) in
  p' = {| raw := raw p; idat_data := idat_data p; aux_chunks := aux; frames := frames p |} \/
  exists ms c fr, optimize_raw e o' (raw p) ms = Ok (Some c) /\
    recompress_frames e o' {| raw := c_image c; idat_data := c_cdata c; aux_chunks := aux; frames := frames p |} (c_filter c) = Ok fr /\
    p' = {| raw := c_image c; idat_data := c_cdata c; aux_chunks := postprocess_chunks aux (hdr (c_image c)) (hdr (raw p)); frames := fr |}.
Proof.
  unfold optimize_png_data. destruct (preprocess_chunks e (aux_chunks p) o) as [aux o']. cbn [fst snd raw idat_data aux_chunks frames]. intros H.
  apply bind_Ok in H as ([c|] & Er & H).
  - apply bind_Ok in H as (fr & Efr & H). injection H as <-. right. eexists _, c, fr. split; [exact Er|]. split; [exact Efr|reflexivity].
  - injection H as <-. left. reflexivity.
Qed.

Lemma optimize_from_memory_cases e o bytes out : optimize_from_memory e o bytes = Ok out ->
  exists p, from_slice e bytes o = Ok p /\ (out = bytes \/ exists p', optimize_png_data e p o = Ok p' /\ out = output p').
Proof.
  unfold optimize_from_memory. intros H. apply bind_Ok in H as (p & Ep & H). exists p. split; [exact Ep|].
  rewrite optimize_png_split in H. apply bind_Ok in H as (x & H & Ex). apply bind_Ok in H as (p' & Ep' & H). injection H as <-.
  destruct (is_fully_optimized _ _ o); injection Ex as <-; [left; reflexivity|right; exists p'; auto].
Qed.

Lemma sem_dims img pic : sem img = Some pic -> pic_w pic = width (hdr img) /\ pic_h pic = height (hdr img).
Proof.
  unfold sem, spec_sem. destruct (negb _); [discriminate|]. destruct (spec_image_pixels _ _ _ _ _); [|discriminate].
  destruct (all_some _); [|discriminate]. intros [= <-]. split; reflexivity.
Qed.

Lemma emitted_means e o img ms c pic : scale_16 o = false -> means pic img -> optimize_raw e o img ms = Ok (Some c) ->
  exists pic1, means pic1 (c_image c) /\ pic_aequiv pic pic1 /\ (optimize_alpha o = false -> pic1 = pic).
Proof.
  intros Hs Hm H. destruct (optimize_alpha o) eqn:Ea.
  - destruct (optimize_raw_alpha_partial e o img ms c pic Hs (ex_intro _ pic (conj Hm (pic_aequiv_refl pic))) H) as (pic1 & M & A).
    exists pic1. split; [exact M|split; [exact A|discriminate]].
  - exists pic. split; [exact (optimize_raw_lossless_partial e o img ms c pic Ea Hs Hm H)|split; [apply pic_aequiv_refl|reflexivity]].
Qed.

(* optimize_raw keeps width and height, so the bounds that the written header needs are those of the input *)
Lemma emitted_container e o img ms c pic aux orig fr M :
  optimize_raw e o img ms = Ok (Some c) -> means pic (c_image c) ->
  0 <= width (hdr img) < 2 ^ 32 -> 0 <= height (hdr img) < 2 ^ 32 ->
  Forall (chunk_ok M) aux -> Forall (frame_ok M) fr -> M + 4 < 2 ^ 31 -> (forall d s, lenZ (z_deflate e d s) <= M) ->
  container_ok {| raw := c_image c; idat_data := c_cdata c; aux_chunks := postprocess_chunks aux (hdr (c_image c)) orig; frames := fr |}.
Proof.
  intros Er [Hwf Hsem] Hw Hh A F HM Hdefl.
  destruct (emitted_satisfies _ e o img ms c (dims_preserved e o img) Er) as [Ew Eh].
  destruct (optimize_raw_provenance e o img ms c Er) as [Hc (al & filtered & _ & _ & Hd)]. rewrite Hc in Hd. destruct Hd as [d Hd].
  apply (container_ok_of_parts M); cbn [raw]; [|exact HM|rewrite Ew; exact Hw|rewrite Eh; exact Hh|exact Hwf|exact (sem_some_legal _ _ Hsem)].
  split; [apply postprocess_chunks_ok; exact A|]. split; [exact F|]. cbn [idat_data]. rewrite Hd. apply Hdefl.
Qed.

Theorem optimize_png_data_container_written e o p p' N M :
  png_ok N p -> 0 <= N -> N + 5 <= M -> M + 4 < 2 ^ 31 -> (forall d s, lenZ (z_deflate e d s) <= M) ->
  0 <= width (hdr (raw p)) < 2 ^ 32 -> 0 <= height (hdr (raw p)) < 2 ^ 32 -> (exists pic, means pic (raw p')) ->
  optimize_png_data e p o = Ok p' -> container_ok p'.
Proof.
  intros (A & F & I) HN HM HM2 Hdefl Hw Hh (pic & Hm) H.
  pose proof (chunks_ok_mono _ M _ HM (preprocess_chunks_ok e (aux_chunks p) o N HN A)) as A'.
  pose proof (frames_ok_mono N M _ ltac:(lia) F) as F'.
  destruct (optimize_png_data_cases _ _ _ _ H) as [->|(ms & c & fr & Er & Efr & ->)]; cbn [raw] in *.
  - apply (container_ok_of_parts M); cbn [raw]; try assumption; [|apply Hm|exact (sem_some_legal _ _ (proj2 Hm))].
    split; [exact A'|split; [exact F'|cbn [idat_data]; lia]].
  - apply (emitted_container e _ _ ms c pic _ _ _ M Er); try assumption. eapply recompress_frames_ok; [|exact Efr]. exact F'.
Qed.

Theorem optimize_png_data_container e o p p' N M pic :
  png_ok N p -> 0 <= N -> N + 5 <= M -> M + 4 < 2 ^ 31 -> (forall d s, lenZ (z_deflate e d s) <= M) ->
  0 <= width (hdr (raw p)) < 2 ^ 32 -> 0 <= height (hdr (raw p)) < 2 ^ 32 ->
  scale_16 o = false -> means pic (raw p) ->
  optimize_png_data e p o = Ok p' -> container_ok p'.
Proof.
  intros Hpok HN HM HM2 Hdefl Hw Hh Hs Hm H. apply (optimize_png_data_container_written e o p p' N M); try assumption.
  destruct (optimize_png_data_cases _ _ _ _ H) as [->|(ms & c & fr & Er & _ & ->)]; [exists pic; exact Hm|].
  rewrite <- (proj2 (preprocess_keeps_lossy e (aux_chunks p) o)) in Hs.
  destruct (emitted_means e _ (raw p) ms c pic Hs Hm Er) as (pic1 & Hm1 & _). exists pic1. exact Hm1.
Qed.

(* C01 for the candidate chosen by optimize_raw, the side conditions of output_decodes spelled out *)
Theorem emitted_file_decodes_partial e o img max_size c pic (inflate : list Z -> option (list Z)) (p' : pngdata) :
  optimize_alpha o = false -> scale_16 o = false -> means pic img ->
  optimize_raw e o img max_size = Ok (Some c) ->
  (* the decompressor undoes the compressor (zlib oracle assumption, re-validated on the recorded calls of every run) *)
  (forall d s, inflate (z_deflate e d s) = Some s) ->
  (* the written file carries the chosen image and its data; container side conditions: chunk sizes < 2^31, no ancillary chunk
     named IEND / PLTE / tRNS / IDAT, header fields encodable *)
  raw p' = c_image c -> idat_data p' = c_cdata c ->
  Forall chunk_wf (output_body p') -> Forall not_iend (output_body p') ->
  writable (hdr (raw p')) -> 0 <= depth (hdr (raw p')) < 256 -> Forall not_key (aux_written p') ->
  spec_decode_png inflate (output p') = Some pic.
Proof.
  intros Ha Hs Hm H Hz Eraw Eidat Hwf Hni Hwr Hd Haux.
  rewrite (output_decodes inflate p' Hwf Hni Hwr Hd Haux).
  destruct (emitted_stream_lossless_partial e o img max_size c pic Ha Hs Hm H) as (d & stream & Ed & Hdec).
  rewrite Eidat, Ed, Hz, Eraw. exact Hdec.
Qed.

(* what is compressed into the emitted IDAT decodes to an alpha-equivalent picture, and to the same picture without alpha optimisation *)
Lemma emitted_stream_joint e o img ms c pic : scale_16 o = false -> means pic img -> optimize_raw e o img ms = Ok (Some c) ->
  exists d stream pic', c_cdata c = z_deflate e d stream /\
    spec_decode_stream (width (hdr (c_image c))) (height (hdr (c_image c))) (spec_color_of (ctype (hdr (c_image c))))
                       (depth (hdr (c_image c))) (interlaced (hdr (c_image c))) stream = Some pic' /\
    pic_aequiv pic pic' /\ (optimize_alpha o = false -> pic' = pic).
Proof.
  intros Hs Hm H. destruct (emitted_means e o img ms c pic Hs Hm H) as (pic1 & Hm1 & A & E).
  destruct (emitted_stream_decodes e o img ms c pic1 H Hm1) as (d & st & pic' & Ed & Hd & A' & E').
  exists d, st, pic'. split; [exact Ed|split; [exact Hd|split; [exact (pic_aequiv_trans _ _ _ A A')|]]].
  intros Ha. rewrite (E' Ha). exact (E Ha).
Qed.

Section Decodes.
Variable e : env.
Variable o : options.
Variable inflate : list Z -> option (list Z).
Variables p p' : pngdata.
Variable pic : picture.
Hypothesis Hz : forall d s, inflate (z_deflate e d s) = Some s.
Hypothesis Hstream : exists stream, inflate (idat_data p) = Some stream /\
  spec_decode_stream (width (hdr (raw p))) (height (hdr (raw p))) (spec_color_of (ctype (hdr (raw p)))) (depth (hdr (raw p)))
                     (interlaced (hdr (raw p))) stream = Some pic.
Hypothesis H : optimize_png_data e p o = Ok p'.
Hypothesis Hc : container_ok p'.

(* Q relates an image to the picture that its compressed data decodes to under its header: if Q holds of the input and of everything
   optimize_raw may emit for it, Q holds of the written file *)
Theorem optimize_png_data_decodes_rel (Q : image -> picture -> Prop) :
  Q (raw p) pic ->
  (forall ms c, optimize_raw e (snd (preprocess_chunks e (aux_chunks p) o)) (raw p) ms = Ok (Some c) ->
     exists d stream pic', c_cdata c = z_deflate e d stream /\
       spec_decode_stream (width (hdr (c_image c))) (height (hdr (c_image c))) (spec_color_of (ctype (hdr (c_image c))))
                          (depth (hdr (c_image c))) (interlaced (hdr (c_image c))) stream = Some pic' /\ Q (c_image c) pic') ->
  exists pic', spec_decode_png inflate (output p') = Some pic' /\ Q (raw p') pic'.
Proof.
  intros Q0 Hraw. destruct Hstream as (stream & Hinf & Hdec). rewrite (container_ok_decodes inflate p' Hc).
  destruct (optimize_png_data_cases _ _ _ _ H) as [->|(ms & c & fr & Er & _ & ->)]; cbn [raw idat_data].
  - exists pic. rewrite Hinf. auto.
  - destruct (Hraw ms c Er) as (d & st & pic' & -> & Hd & Q1). exists pic'. rewrite Hz. auto.
Qed.

Theorem optimize_png_data_decodes_joint : scale_16 o = false -> means pic (raw p) ->
  exists pic', spec_decode_png inflate (output p') = Some pic' /\ pic_aequiv pic pic' /\ (optimize_alpha o = false -> pic' = pic).
Proof.
  intros Hs Hm. destruct (preprocess_keeps_lossy e (aux_chunks p) o) as [Ea Es]. rewrite <- Es in Hs. rewrite <- Ea.
  apply (optimize_png_data_decodes_rel (fun _ q => pic_aequiv pic q /\ (optimize_alpha (snd (preprocess_chunks e (aux_chunks p) o)) = false -> q = pic)));
    [split; [apply pic_aequiv_refl|reflexivity]|].
  intros ms c Er. exact (emitted_stream_joint e _ (raw p) ms c pic Hs Hm Er).
Qed.
End Decodes.

Section FromMemory.
Variable e : env.
Variable o : options.
Variable inflate : list Z -> option (list Z).
Variables bytes out : list Z.
Variable pic : picture.
Variables nm ih : list Z.
Variable rest : list (list Z * list Z).
Hypothesis Hok : bytes_ok bytes.
(* the input is a valid datastream that the specification decodes to pic *)
Hypothesis Hparse : spec_parse_png bytes = Some ((nm, ih) :: rest).
Hypothesis Hdec : spec_decode_chunks inflate ((nm, ih) :: rest) = Some pic.
Hypothesis H1 : List.filter (named spec_IHDR) rest = [].
Hypothesis H2 : (length (List.filter (named spec_PLTE) rest) <= 1)%nat.
Hypothesis H3 : (length (List.filter (named spec_tRNS) rest) <= 1)%nat.
(* zlib oracle: the code's decompressor is the specification's and returns bytes; inflate undoes the compressor *)
Hypothesis Hz : forall x n y, z_inflate e x n = Ok y -> inflate x = Some y /\ bytes_ok y.
Hypothesis Hzd : forall d s, inflate (z_deflate e d s) = Some s.
(* side conditions on the parsed image (address space; colour key within the sample range, palette of at most 256 bytes-valued entries) *)
Hypothesis Hside : forall p, from_slice e bytes o = Ok p ->
  spec_raw_size (width (hdr (raw p))) (height (hdr (raw p))) (bpp (hdr (raw p))) (interlaced (hdr (raw p))) true <= usize_max /\
  wf_ctype (ctype (hdr (raw p))) (depth (hdr (raw p))).
Hypothesis H : optimize_from_memory e o bytes = Ok out.

(* the container conditions granted (C01, C03) *)
Theorem optimize_from_memory_partial : scale_16 o = false ->
  out = bytes \/ exists p p', from_slice e bytes o = Ok p /\ means pic (raw p) /\ optimize_png_data e p o = Ok p' /\ out = output p' /\
    (container_ok p' -> exists pic', spec_decode_png inflate (output p') = Some pic' /\ pic_aequiv pic pic' /\ (optimize_alpha o = false -> pic' = pic)).
Proof.
  intros Hs. destruct (optimize_from_memory_cases _ _ _ _ H) as (p & Ep & [E|(p' & Eo & E)]); [left; exact E|right].
  destruct (Hside p Ep) as [Hu Hw].
  destruct (from_slice_means e o inflate bytes p pic nm ih rest Hok Ep Hparse Hdec H1 H2 H3 Hz Hu Hw) as (Hwf & Hsem & Hstream).
  exists p, p'. split; [exact Ep|split; [exact (conj Hwf Hsem)|split; [exact Eo|split; [exact E|]]]].
  intros Hc. exact (optimize_png_data_decodes_joint e o inflate p p' pic Hzd Hstream Eo Hc Hs (conj Hwf Hsem)).
Qed.

Theorem optimize_from_memory_lossless_partial : optimize_alpha o = false -> scale_16 o = false ->
  out = bytes \/ exists p', out = output p' /\ (container_ok p' -> spec_decode_png inflate (output p') = Some pic).
Proof.
  intros Ha Hs. destruct (optimize_from_memory_partial Hs) as [E|(p & p' & _ & _ & _ & E & D)]; [left; exact E|right].
  exists p'. split; [exact E|]. intros Hc. destruct (D Hc) as (pic' & Hd & _ & Ep). rewrite <- (Ep Ha). exact Hd.
Qed.

Theorem optimize_from_memory_alpha_partial : scale_16 o = false ->
  out = bytes \/ exists p', out = output p' /\
    (container_ok p' -> exists pic', spec_decode_png inflate (output p') = Some pic' /\ pic_aequiv pic pic').
Proof.
  intros Hs. destruct (optimize_from_memory_partial Hs) as [E|(p & p' & _ & _ & _ & E & D)]; [left; exact E|right].
  exists p'. split; [exact E|]. intros Hc. destruct (D Hc) as (pic' & Hd & A & _). exists pic'. auto.
Qed.

(* and derived from the input: every compressor answer and the input itself are shorter than M *)
Theorem optimize_from_memory_decodes M : scale_16 o = false ->
  lenZ bytes + 5 <= M -> M + 4 < 2 ^ 31 -> (forall d s, lenZ (z_deflate e d s) <= M) ->
  exists pic', spec_decode_png inflate out = Some pic' /\ pic_aequiv pic pic' /\ (optimize_alpha o = false -> pic' = pic).
Proof.
  intros Hs HM HM2 Hdefl. destruct (optimize_from_memory_partial Hs) as [E|(p & p' & Ep & Hm & Eo & E & D)]; rewrite E.
  { exists pic. split; [unfold spec_decode_png; rewrite Hparse; exact Hdec|split; [apply pic_aequiv_refl|reflexivity]]. }
  destruct (from_slice_png_ok e o bytes p Hok Ep) as (Hpok & Hrw & Hrh). apply D.
  exact (optimize_png_data_container e o p p' (lenZ bytes) M pic Hpok ltac:(unfold lenZ; lia) HM HM2 Hdefl Hrw Hrh Hs Hm Eo).
Qed.

Theorem optimize_from_memory_alpha M : scale_16 o = false ->
  lenZ bytes + 5 <= M -> M + 4 < 2 ^ 31 -> (forall d s, lenZ (z_deflate e d s) <= M) ->
  exists pic', spec_decode_png inflate out = Some pic' /\ pic_aequiv pic pic'.
Proof. intros Hs HM HM2 Hdefl. destruct (optimize_from_memory_decodes M Hs HM HM2 Hdefl) as (pic' & D & A & _). exists pic'. auto. Qed.

Theorem optimize_from_memory_lossless M : optimize_alpha o = false -> scale_16 o = false ->
  lenZ bytes + 5 <= M -> M + 4 < 2 ^ 31 -> (forall d s, lenZ (z_deflate e d s) <= M) ->
  spec_decode_png inflate out = Some pic.
Proof. intros Ha Hs HM HM2 Hdefl. destruct (optimize_from_memory_decodes M Hs HM HM2 Hdefl) as (pic' & D & _ & E). rewrite <- (E Ha). exact D. Qed.
End FromMemory.

Lemma raw_create_cases e r o out : raw_create e r o = Ok out ->
  let pre := preprocess_chunks e (List.filter (fun c => strip_keep (strip o) (c_name c)) (ri_aux r)) o in
  exists c, optimize_raw e (snd pre) (ri_png r) None = Ok (Some c) /\
    out = output {| raw := c_image c; idat_data := c_cdata c;
                    aux_chunks := postprocess_chunks (fst pre) (hdr (c_image c)) (hdr (ri_png r)); frames := [] |}.
Proof.
  unfold raw_create. cbv zeta. destruct (preprocess_chunks e _ o) as [aux o']. cbn [fst snd]. intros H.
  apply bind_Ok in H as ([c|] & Er & H); [|discriminate]. injection H as <-. exists c. split; [exact Er|reflexivity].
Qed.

Lemma raw_create_container e r o c pic N M :
  Forall (chunk_ok N) (ri_aux r) -> 0 <= N -> N + 5 <= M -> M + 4 < 2 ^ 31 -> (forall d s, lenZ (z_deflate e d s) <= M) ->
  let pre := preprocess_chunks e (List.filter (fun c => strip_keep (strip o) (c_name c)) (ri_aux r)) o in
  optimize_raw e (snd pre) (ri_png r) None = Ok (Some c) -> means pic (c_image c) ->
  0 <= width (hdr (ri_png r)) < 2 ^ 32 -> 0 <= height (hdr (ri_png r)) < 2 ^ 32 ->
  container_ok {| raw := c_image c; idat_data := c_cdata c;
                  aux_chunks := postprocess_chunks (fst pre) (hdr (c_image c)) (hdr (ri_png r)); frames := [] |}.
Proof.
  intros Haux HN HM HM2 Hdefl pre Er Hm Hw Hh. apply (emitted_container e _ _ None c pic _ _ _ M Er); auto.
  apply (chunks_ok_mono (N + 5)); [exact HM|]. apply preprocess_chunks_ok; [exact HN|]. exact (incl_Forall (incl_filter _ _) Haux).
Qed.

Theorem raw_create_decodes e o (inflate : list Z -> option (list Z)) r out pic N M :
  scale_16 o = false -> wf (ri_png r) -> sem (ri_png r) = Some pic ->
  0 <= width (hdr (ri_png r)) < 2 ^ 32 -> 0 <= height (hdr (ri_png r)) < 2 ^ 32 ->
  Forall (chunk_ok N) (ri_aux r) -> 0 <= N -> N + 5 <= M -> M + 4 < 2 ^ 31 -> (forall d s, lenZ (z_deflate e d s) <= M) ->
  (forall d s, inflate (z_deflate e d s) = Some s) ->
  raw_create e r o = Ok out ->
  exists pic', spec_decode_png inflate out = Some pic' /\ pic_aequiv pic pic' /\ (optimize_alpha o = false -> pic' = pic).
Proof.
  intros Hs Hwf Hsem Hw Hh Haux HN HM HM2 Hdefl Hz H. destruct (raw_create_cases _ _ _ _ H) as (c & Er & ->). clear H.
  destruct (preprocess_keeps_lossy e (List.filter (fun c => strip_keep (strip o) (c_name c)) (ri_aux r)) o) as [Ea Es]. rewrite <- Es in Hs.
  assert (Hm : means pic (ri_png r)) by (split; assumption).
  destruct (emitted_means e _ _ None c pic Hs Hm Er) as (pic1 & Hm1 & _).
  rewrite (container_ok_decodes inflate _ (raw_create_container e r o c pic1 N M Haux HN HM HM2 Hdefl Er Hm1 Hw Hh)). cbn [raw idat_data].
  destruct (emitted_stream_joint e _ (ri_png r) None c pic Hs Hm Er) as (d & st & pic' & Ed & Hd & Hq). rewrite Ea in Hq.
  exists pic'. rewrite Ed, Hz. exact (conj Hd Hq).
Qed.
