(* sorted_palette_mzeng keeps the meaning of an image: its re-indexing lists every palette index the image uses.
   For both sorters: image_cooc_inv (the matrix of a decodable 8-bit indexed image satisfies cooc_inv over its data) and
   palette_sorter_sem (the pipeline keeps the meaning for any re-indexing that lists the used indices). *)
From Coq Require Import Permutation.
From OxiVerif Require Import Base.Common Base.ListFacts Spec.Sem Model.Types Model.ScanLines Model.Palette Proofs.Bridge Proofs.ImageLift
  Proofs.LiftReductions Proofs.LiftColor Proofs.LiftPalette Proofs.LiftLines.
From OxiVerif Require Import Proofs.CoocMatrix Proofs.SortGraph Proofs.MzengLoop.
Local Open Scope Z_scope.

(* a decodable non-interlaced image has only decodable pixels *)
Lemma sem_plain_all_some img (B : nat) pic : (0 < B)%nat -> interlaced (hdr img) = false ->
  depth (hdr img) * channels_per_pixel (ctype (hdr img)) = 8 * Z.of_nat B ->
  sem img = Some pic ->
  Forall (fun px => pxcol (spec_color_of (ctype (hdr img))) (depth (hdr img)) px <> None) (chunks_exact B (data img)).
Proof.
  intros HB Hil Hbits Hsem. unfold sem in Hsem. rewrite spec_sem_gsem in Hsem.
  destruct (negb (depth_legal _ _)); [discriminate|]. rewrite spec_channels_of, Hbits, Hil in Hsem.
  destruct (gsem_some_length _ _ _ _ B _ _ HB Hsem) as [k Hlen].
  destruct (chunks_exact_spec B (data img) k HB Hlen) as (Hc & Hu & Hn).
  rewrite <- Hc in Hsem. rewrite (gsem_aligned_cols _ _ _ _ B _ HB Hu) in Hsem.
  unfold gcol in Hsem. destruct ((width (hdr img) <=? 0) || (height (hdr img) <=? 0)); [discriminate|].
  destruct (split_px (pix_layout (width (hdr img)) (height (hdr img)) false) _) as [lines|] eqn:Es; [|discriminate].
  unfold assemble in Hsem. apply finish_some_all, Forall_concat in Hsem.
  rewrite (split_px_concat _ _ _ Es), Forall_map in Hsem. exact Hsem.
Qed.

Lemma indexed8_in_range img pal pic : wf img -> ctype (hdr img) = Indexed pal -> depth (hdr img) = 8 -> interlaced (hdr img) = false ->
  sem img = Some pic -> Forall (fun v => 0 <= v < lenZ pal) (data img).
Proof.
  intros [Hok _] Hc Hd Hil Hsem.
  pose proof (sem_plain_all_some img 1 pic ltac:(lia) Hil ltac:(rewrite Hd, Hc; reflexivity) Hsem) as Hall.
  rewrite chunks_exact_1 in Hall. apply Forall_forall. intros v Hv.
  rewrite Forall_forall in Hall. specialize (Hall [v] (in_map (fun b : Z => [b]) (data img) v Hv)).
  pose proof (bytes_ok_in _ v Hok Hv) as Hb. rewrite Hc, Hd in Hall. cbn [spec_color_of] in Hall.
  rewrite pxcol8 in Hall by (constructor; [unfold byte_ok; lia|constructor]).
  cbn [color_of_samples] in Hall. unfold rgba8 in *. destruct (nth_error pal (Z.to_nat v)) eqn:En; [|exfalso; apply Hall; reflexivity].
  assert (Z.to_nat v < length pal)%nat by (apply nth_error_Some; rewrite En; discriminate). unfold lenZ. lia.
Qed.

(* apply_most_popular_color only rotates / reverses *)
Lemma rotate_left_perm {A} (l : list A) k : Permutation (rotate_left l k) l.
Proof. unfold rotate_left. rewrite Permutation_app_comm, firstn_skipn. reflexivity. Qed.

Lemma apply_mpc_perm data R R' : apply_most_popular_color data R = Ok R' -> Permutation R' R.
Proof.
  unfold apply_most_popular_color. destruct (most_popular_color (length R) data) as [idx cnt].
  destruct (cnt <? _); [intros [= <-]; reflexivity|].
  destruct (position_of idx R 0) as [fi|]; [|discriminate].
  destruct (_ <=? fi)%nat; intros [= <-]; unfold rotate_right; rewrite rotate_left_perm; [symmetry; apply Permutation_rev|reflexivity].
Qed.

Lemma position_of_in v l : forall i k, position_of v l i = Some k -> In v l.
Proof. induction l as [|a t IH]; intros i k H; cbn [position_of] in H; [discriminate|]. destruct (Z.eqb_spec a v); [left; assumption|right; eapply IH; eauto]. Qed.

(* Started with a candidate, the search returns the candidate or a later entry, whichever is a maximum (the last one). *)
Lemma mbkl_from : forall l i bj bv, exists j v, max_by_key_last l i (Some (bj, bv)) = Some (j, v) /\ bv <= v /\ (forall x, In x l -> x <= v) /\
  ((j, v) = (bj, bv) \/ exists k, j = i + Z.of_nat k /\ nth_error l k = Some v).
Proof.
  induction l as [|v0 t IH]; intros i bj bv; cbn [max_by_key_last].
  - exists bj, bv. split; [reflexivity|]. split; [lia|]. split; [intros x []|left; reflexivity].
  - destruct (Z.leb_spec bv v0).
    + destruct (IH (i + 1) i v0) as (j & v & E & Hb & Hall & Hj). exists j, v. split; [exact E|]. split; [lia|].
      split; [intros x [<-|Hx]; [exact Hb|exact (Hall x Hx)]|]. right.
      destruct Hj as [[= -> ->]|(k & -> & Hk)]; [exists 0%nat|exists (S k)]; (split; [lia|assumption || reflexivity]).
    + destruct (IH (i + 1) bj bv) as (j & v & E & Hb & Hall & Hj). exists j, v. split; [exact E|]. split; [exact Hb|].
      split; [intros x [<-|Hx]; [lia|exact (Hall x Hx)]|].
      destruct Hj as [Hj|(k & -> & Hk)]; [left; exact Hj|right; exists (S k); split; [lia|exact Hk]].
Qed.

Lemma mbkl_spec l : l <> [] -> exists k v, max_by_key_last l 0 None = Some (Z.of_nat k, v) /\ nth_error l k = Some v /\ forall x, In x l -> x <= v.
Proof.
  destruct l as [|v0 t]; [contradiction|]. intros _. cbn [max_by_key_last].
  destruct (mbkl_from t (0 + 1) 0 v0) as (j & v & E & Hb & Hall & Hj). rewrite E.
  destruct Hj as [[= -> ->]|(k & -> & Hk)]; [exists 0%nat, v0|exists (S k), v];
    (split; [do 2 f_equal; lia|]; split; [assumption || reflexivity|intros x [<-|Hx]; [lia|exact (Hall x Hx)]]).
Qed.

Lemma counts_length data : forall cn, length (fold_left (fun cn v => incr_nth v cn) data cn) = length cn.
Proof. induction data as [|v t IH]; intros cn; cbn [fold_left]; [reflexivity|]. rewrite IH. apply set_nth_length. Qed.

Lemma counts_single c data : (forall x, In x data -> x = c) -> forall cn k, (Z.to_nat c < length cn)%nat ->
  nth k (fold_left (fun cn v => incr_nth v cn) data cn) 0 = nth k cn 0 + (if (k =? Z.to_nat c)%nat then lenZ data else 0).
Proof.
  unfold lenZ. induction data as [|v t IH]; intros Hall cn k Hc; cbn [fold_left].
  - destruct (k =? Z.to_nat c)%nat; cbn; lia.
  - rewrite (Hall v (or_introl eq_refl)), (IH (fun x Hx => Hall x (or_intror Hx))) by (unfold incr_nth; rewrite set_nth_length; exact Hc).
    rewrite (nth_incr_nth c cn k Hc). destruct (k =? Z.to_nat c)%nat; cbn [length]; lia.
Qed.

(* In a one-colour sequence that colour is the most popular one, with every element counted. *)
Lemma most_popular_single data n c : data <> [] -> (forall x, In x data -> x = c) -> 0 <= c < Z.of_nat n -> (n <= 256)%nat ->
  most_popular_color n data = (c, lenZ data).
Proof.
  intros Hne Hall Hc Hlen. unfold most_popular_color.
  set (N := lenZ data).
  assert (HN : 1 <= N) by (unfold N, lenZ; destruct data; [contradiction|cbn; lia]).
  (* the counts are N at c and 0 elsewhere *)
  set (l := firstn n (fold_left _ data (repeat 0 256))).
  assert (Hl : forall k, (k < n)%nat -> nth k l 0 = if (k =? Z.to_nat c)%nat then N else 0).
  { intros k Hk. unfold l. rewrite nth_firstn_lt, (counts_single c), nth_repeat by (assumption || rewrite ?repeat_length; lia). reflexivity. }
  assert (Hll : length l = n).
  { unfold l. rewrite firstn_length, counts_length, repeat_length. lia. }
  (* so the last maximum is at c *)
  destruct (mbkl_spec l) as (k & cnt & -> & Hk & Hmax); [intros E; rewrite E in Hll; cbn in Hll; lia|].
  assert (Hkl : (k < n)%nat) by (rewrite <- Hll; apply nth_error_Some; rewrite Hk; discriminate).
  assert (HinN : In N l).
  { pose proof (Hl (Z.to_nat c) ltac:(lia)) as E. rewrite Nat.eqb_refl in E. rewrite <- E. apply nth_In. lia. }
  apply (nth_error_nth _ _ 0) in Hk. rewrite (Hl k Hkl) in Hk. specialize (Hmax N HinN).
  destruct (Nat.eqb_spec k (Z.to_nat c)) as [->|]; [|lia]. rewrite Hk, Z2Nat.id by lia. reflexivity.
Qed.

Lemma single_colour_in data R R' c : data <> [] -> (forall x, In x data -> x = c) ->
  0 <= c < Z.of_nat (length R) -> (length R <= 256)%nat ->
  apply_most_popular_color data R = Ok R' -> In c R.
Proof.
  intros Hne Hall Hc Hlen H. unfold apply_most_popular_color in H. rewrite (most_popular_single data (length R) c) in H by assumption.
  destruct (Z.ltb_spec (lenZ data) (lenZ data * 3 / 20)); [unfold lenZ in *; Z.div_mod_to_equations; lia|].
  destruct (position_of c R 0) as [fi|] eqn:Ep; [|discriminate]. exact (position_of_in _ _ _ _ Ep).
Qed.

Lemma image_cooc_inv img pal pic lines m : wf img -> sem img = Some pic ->
  ctype (hdr img) = Indexed pal -> depth (hdr img) = 8 -> interlaced (hdr img) = false ->
  scan_lines img false = Ok lines -> co_occurrence_matrix (length pal) lines = Ok m -> cooc_inv (length pal) m (data img).
Proof.
  intros Hwf Hsem Ec Ed Eil Esl Em.
  destruct (sem_some_cut _ _ Hsem) as (Hw & Hh & Hbpp & L & Hcut).
  pose proof (scan_lines_is_layout img L Hw Hh Hbpp Hcut) as Hsl. rewrite Esl in Hsl. injection Hsl as ->.
  destruct (cut_layout_shape _ _ _ Hcut) as [_ Hdata].
  assert (Evs : concat (map l_data (map to_scanline L)) = data img) by (rewrite map_map, Hdata; reflexivity).
  pose proof (indexed8_in_range img pal pic Hwf Ec Ed Eil Hsem) as Hrange. rewrite <- Evs in Hrange |- *.
  apply co_occurrence_inv; [|exact Em]. rewrite Forall_concat, Forall_map in Hrange. exact Hrange.
Qed.

(* Both co-occurrence sorters are this pipeline, with their own re-indexing: it keeps the meaning as soon as the re-indexing lists
   the indices the image uses and is not longer than the palette. *)
Theorem palette_sorter_sem (reindex : nat -> matrix -> res (list Z)) img r pic : wf img -> sem img = Some pic ->
  (forall (pal : list rgba8) m R R', (2 < length pal <= 256)%nat -> cooc_inv (length pal) m (data img) -> reindex (length pal) m = Ok R ->
     apply_most_popular_color (data img) R = Ok R' -> (length R <= length pal)%nat /\ forall c, In c (data img) -> In c R) ->
  match palette_for_sort img with
  | None => Ok None
  | Some pal =>
      do lines <- scan_lines img false;
      do m <- co_occurrence_matrix (length pal) lines;
      do R <- reindex (length pal) m;
      do R' <- apply_most_popular_color (data img) R;
      apply_palette_reorder img R'
  end = Ok (Some r) -> sem r = Some pic /\ wf r.
Proof.
  intros Hwf Hsem Hre H. unfold palette_for_sort in H.
  destruct (depth (hdr img) =? 8) eqn:Ed; cbn [negb orb] in H; [|discriminate]. apply Z.eqb_eq in Ed.
  destruct (interlaced (hdr img)) eqn:Eil; [discriminate|].
  destruct (ctype (hdr img)) as [| |pal| |] eqn:Ec; try discriminate.
  destruct (Nat.leb_spec (length pal) 2) as [|Hn3]; [discriminate|].
  apply bind_Ok in H. destruct H as (lines & Esl & H). apply bind_Ok in H. destruct H as (m & Em & H).
  apply bind_Ok in H. destruct H as (R & ER & H). apply bind_Ok in H. destruct H as (R' & EM & H).
  pose proof (image_cooc_inv img pal pic lines m Hwf Hsem Ec Ed Eil Esl Em) as HI.
  pose proof Hwf as [_ Hwfc]. rewrite Ec in Hwfc. cbn [wf_ctype] in Hwfc. destruct Hwfc as [_ Hpl].
  destruct (Hre pal m R R' (conj Hn3 Hpl) HI ER EM) as [HlenR Hcov].
  pose proof (apply_mpc_perm _ _ _ EM) as HP.
  apply (apply_palette_reorder_sem img R' r pic Ed Hwf); [rewrite (Permutation_length HP); lia| |exact H|exact Hsem].
  intros pal' _ c Hc _. apply (Permutation_in c (Permutation_sym HP)), Hcov, Hc.
Qed.

Theorem sorted_palette_mzeng_sem img r pic : wf img -> sem img = Some pic ->
  sorted_palette_mzeng img = Ok (Some r) -> sem r = Some pic /\ wf r.
Proof.
  intros Hwf Hsem. apply (palette_sorter_sem (fun n m => mzeng_reindex n (weighted_edges m) m) img r pic Hwf Hsem).
  intros pal m R R' Hpal HI ER EM.
  (* the length of the re-indexing is the palette's, whatever it contains *)
  pose proof (mzeng_reindex_length _ m R (proj1 (ci_shape _ _ _ HI)) ER) as HlenR. split; [lia|].
  destruct (adjacent_distinct_or_const (data img)) as [Htwo|Hone]; [exact (mzeng_reindex_covers _ m _ R HI Htwo ER)|].
  (* one colour only *)
  intros c Hc. pose proof (ci_in_range _ _ _ c HI Hc).
  apply (single_colour_in (data img) R R' c); [intros E; rewrite E in Hc; exact Hc|intros x Hx; exact (Hone x c Hx Hc)|lia|lia|exact EM].
Qed.
