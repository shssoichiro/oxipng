(* raw_data_size (src/headers.rs) is the specification's stream size capped at usize::MAX, hence equal to it when it fits
   (C18 and C05; PngImage::new's meaning in UnfilterImage and its no-panic theorem rest on it). *)
From OxiVerif Require Import Base.Common Base.ListFacts Spec.Adam7 Model.Types Model.Headers Proofs.Adam7Geom.

Definition pass_total (w h b p : Z) : Z :=
  if pw w p =? 0 then 0 else ph h p * (line_bytes b (pw w p) + 1).

Lemma spec_pass_total w h b p :
  sumZ (map (fun l : option Z * Z * Z => snd l + 1)
            (map (fun pn : Z * Z => (Some (fst pn), snd pn, line_bytes b (snd pn))) (spec_pass_lines w h p)))
  = pass_total w h b p.
Proof.
  unfold spec_pass_lines, pass_total. destruct (pw w p =? 0); [reflexivity|].
  rewrite !map_repeat, sumZ_repeat. cbn [snd fst].
  pose proof (ph_nonneg h p). rewrite Z2Nat.id by lia. reflexivity.
Qed.

Lemma spec_raw_size_closed w h b :
  spec_raw_size w h b true true =
  pass_total w h b 1 + pass_total w h b 2 + pass_total w h b 3 + pass_total w h b 4 +
  pass_total w h b 5 + pass_total w h b 6 + pass_total w h b 7.
Proof.
  unfold spec_raw_size, spec_layout, spec_lines, passes7. cbn [flat_map].
  rewrite app_nil_r. rewrite !map_app, !sumZ_app.
  rewrite !spec_pass_total. lia.
Qed.

Lemma pass_total_nonneg w h b p : 1 <= b -> 0 <= pass_total w h b p.
Proof.
  intros Hb. unfold pass_total. destruct (pw w p =? 0); [lia|].
  pose proof (pw_nonneg w p). pose proof (ph_nonneg h p).
  assert (0 <= line_bytes b (pw w p)) by (unfold line_bytes, cdiv; apply Z.div_pos; nia). nia.
Qed.

Lemma pass_total_alt w h b p pw0 ph0 : 1 <= b -> 0 <= pw0 -> 0 <= ph0 ->
  pw w p = pw0 -> ph h p = ph0 ->
  pass_total w h b p = ph0 * (cdiv (pw0 * b) 8 + 1) \/ (pw0 = 0 /\ pass_total w h b p = 0).
Proof.
  intros Hb H1 H2 E1 E2. unfold pass_total. rewrite E1, E2. destruct (pw0 =? 0) eqn:E.
  - apply Z.eqb_eq in E. right. auto.
  - left. reflexivity.
Qed.

Lemma pass_size_min b pw0 ph0 : 0 <= pw0 -> 0 <= ph0 -> 1 <= b ->
  pass_size b pw0 ph0 = Z.min (ph0 * (cdiv (pw0 * b) 8 + 1)) usize_max.
Proof.
  intros Hw Hh Hb. unfold pass_size, bitmap_size, sat_add, sat_mul.
  assert (0 <= cdiv (pw0 * b) 8) by (unfold cdiv; apply Z.div_pos; nia).
  set (c := cdiv (pw0 * b) 8) in *. assert (0 <= c * ph0) by nia.
  replace (ph0 * (c + 1)) with (c * ph0 + ph0) by ring. assert (0 < usize_max) by (unfold usize_max; lia). lia.
Qed.

Lemma sat_add_min a c : 0 <= a -> 0 <= c -> sat_add (Z.min a usize_max) (Z.min c usize_max) = Z.min (a + c) usize_max.
Proof. intros Ha Hc. unfold sat_add. assert (0 < usize_max) by (unfold usize_max; lia). lia. Qed.

(* the pass dimensions as raw_data_size writes them *)
Definition rust_pw (w p : Z) : Z :=
  match p with 1 => (w + 7) / 8 | 2 => (w + 3) / 8 | 3 => (w + 3) / 4 | 4 => (w + 1) / 4 | 5 => (w + 1) / 2 | 6 => w / 2 | _ => w end.
Definition rust_ph (h p : Z) : Z :=
  match p with 1 => (h + 7) / 8 | 2 => (h + 7) / 8 | 3 => (h + 3) / 8 | 4 => (h + 3) / 4 | 5 => (h + 1) / 4 | 6 => (h + 1) / 2 | _ => h / 2 end.

(* Rust guards passes 2, 4, 6 by x0 p < w: below that their width expression is 0 like the empty pass's, but pass(0, ph) would still count ph filter bytes *)
Lemma rust_pw_spec w p : In p passes7 -> x0 p < w -> pw w p = rust_pw w p.
Proof.
  intros Hp Hx. unfold pw, cdiv. destruct (Z.leb_spec w (x0 p)); [lia|].
  destruct (passes7_cases p Hp) as [->|[->|[->|[->|[->|[->| ->]]]]]]; cbn [x0 dx rust_pw] in *; Z.div_mod_to_equations; lia.
Qed.

Lemma rust_ph_spec h p : 1 <= h -> In p passes7 -> ph h p = rust_ph h p.
Proof.
  intros Hh Hp. unfold ph, cdiv.
  destruct (Z.leb_spec h (y0 p)); destruct (passes7_cases p Hp) as [->|[->|[->|[->|[->|[->| ->]]]]]]; cbn [y0 dy rust_ph] in *; Z.div_mod_to_equations; lia.
Qed.

Lemma pass_total_empty w h b p : w <= x0 p -> pass_total w h b p = 0.
Proof. intros Hx. unfold pass_total, pw. destruct (Z.leb_spec w (x0 p)); [reflexivity|lia]. Qed.

Lemma pass_size_total w h b p : 1 <= h -> 1 <= b -> In p passes7 -> x0 p < w ->
  pass_size b (rust_pw w p) (rust_ph h p) = Z.min (pass_total w h b p) usize_max.
Proof.
  intros Hh Hb Hp Hx. pose proof (proj2 (pw_pos w p) Hx) as Hpos. pose proof (ph_nonneg h p) as Hn.
  rewrite <- (rust_pw_spec w p Hp Hx), <- (rust_ph_spec h p Hh Hp).
  destruct (pass_total_alt w h b p (pw w p) (ph h p) Hb ltac:(lia) Hn eq_refl eq_refl) as [->|[E _]]; [|lia].
  apply pass_size_min; lia.
Qed.

(* raw_data_size adds the seven pass sizes one after the other with saturating_add. What holds between two additions:
   size is the sum a of the pass totals so far, capped; this carries it over one more addition *)
Lemma add_pass w h b p size a : 1 <= h -> 1 <= b -> In p passes7 -> x0 p < w ->
  size = Z.min a usize_max /\ 0 <= a ->
  sat_add size (pass_size b (rust_pw w p) (rust_ph h p)) = Z.min (a + pass_total w h b p) usize_max /\
  0 <= a + pass_total w h b p.
Proof.
  intros Hh Hb Hp Hx [-> Ha]. pose proof (pass_total_nonneg w h b p Hb).
  rewrite pass_size_total, sat_add_min by assumption. lia.
Qed.

Lemma add_pass_if w h b p size a : 1 <= h -> 1 <= b -> In p passes7 ->
  size = Z.min a usize_max /\ 0 <= a ->
  (if x0 p <? w then sat_add size (pass_size b (rust_pw w p) (rust_ph h p)) else size)
    = Z.min (a + pass_total w h b p) usize_max /\
  0 <= a + pass_total w h b p.
Proof.
  intros Hh Hb Hp Hs. destruct (Z.ltb_spec (x0 p) w) as [Hx|Hx]; [apply add_pass; assumption|].
  rewrite pass_total_empty, Z.add_0_r by exact Hx. exact Hs.
Qed.

(* For every w, h >= 1 and pixel size, raw_data_size is the specification's total (filter bytes
   included), interlaced or not, capped at usize::MAX *)
Theorem raw_data_size_min (hd : ihdr) : 1 <= width hd -> 1 <= height hd -> 1 <= bpp hd ->
  raw_data_size hd = Z.min (spec_raw_size (width hd) (height hd) (bpp hd) (interlaced hd) true) usize_max.
Proof.
  intros Hw Hh Hb. unfold raw_data_size. destruct (interlaced hd); cbn [negb].
  - rewrite spec_raw_size_closed.
    set (w := width hd) in *. set (h := height hd) in *. set (b := bpp hd) in *.
    refine (proj1 (_ : _ /\ 0 <= _)).
    apply (add_pass w h b 7); [assumption..|cbn; tauto|cbn [x0]; lia|].
    apply (add_pass_if w h b 6); [assumption..|cbn; tauto|].
    apply (add_pass w h b 5); [assumption..|cbn; tauto|cbn [x0]; lia|].
    apply (add_pass_if w h b 4); [assumption..|cbn; tauto|].
    apply (add_pass w h b 3); [assumption..|cbn; tauto|cbn [x0]; lia|].
    apply (add_pass_if w h b 2); [assumption..|cbn; tauto|].
    split; [apply (pass_size_total w h b 1); [assumption..|cbn; tauto|cbn [x0]; lia]|apply pass_total_nonneg, Hb].
  - unfold spec_raw_size, spec_layout. rewrite map_repeat, sumZ_repeat. cbn [snd].
    rewrite Z2Nat.id by lia. apply pass_size_min; lia.
Qed.

Theorem raw_data_size_spec (hd : ihdr) :
  1 <= width hd -> 1 <= height hd -> 1 <= bpp hd ->
  spec_raw_size (width hd) (height hd) (bpp hd) (interlaced hd) true <= usize_max ->
  raw_data_size hd = spec_raw_size (width hd) (height hd) (bpp hd) (interlaced hd) true.
Proof. intros Hw Hh Hb Hle. rewrite raw_data_size_min by assumption. apply Z.min_l. exact Hle. Qed.
