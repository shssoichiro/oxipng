(* sorted_palette_battiato keeps the meaning of an image: its re-indexing is a permutation of all palette indices. *)
From OxiVerif Require Import Base.Common Model.Palette Proofs.Bridge Proofs.LiftColor Proofs.CoocMatrix Proofs.SortGraph Proofs.LiftMzeng.
From OxiVerif Require Import Proofs.BattiatoLoop.
Local Open Scope Z_scope.

Lemma weighted_edges_in m a b : In (a, b) (weighted_edges m) <-> 0 <= a < b /\ b < lenZ m.
Proof.
  unfold weighted_edges. fold (edge_list m). rewrite in_map_iff. split.
  - intros ([[a' b'] w] & [= -> ->] & Hin). apply stable_sort_in, edge_list_in in Hin. tauto.
  - intros [H1 H2]. exists ((a, b), mget m b a). split; [reflexivity|]. apply stable_sort_in, edge_list_in. auto.
Qed.

Theorem sorted_palette_battiato_sem img r pic : wf img -> sem img = Some pic ->
  sorted_palette_battiato img = Ok (Some r) -> sem r = Some pic /\ wf r.
Proof.
  intros Hwf Hsem. apply (palette_sorter_sem (fun n m => battiato_reindex n (weighted_edges m)) img r pic Hwf Hsem).
  intros pal m R R' Hpal HI ER _.
  destruct (battiato_all_indices (length pal) (weighted_edges m) R ltac:(lia)) as (Hnd & Hlen & Hall); [|exact ER|].
  { intros a b. rewrite weighted_edges_in. destruct HI as [[Hlm _] _ _ _ _ _]. unfold lenZ. rewrite Hlm. tauto. }
  split; [lia|]. intros c Hc. apply Hall, (ci_in_range _ _ _ _ HI), Hc.
Qed.
