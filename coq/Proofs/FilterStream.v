(* From filtered rows to the filtered stream: the inflated IDAT content that filter_image produces for a decodable image
   is accepted by the specification's decoder and means what the image means (C01 / C19 at stream level), for any relation
   between a scan line and what filter_line makes of it. Also bpp_bytes = filter_bpp and the byte lengths of an image's scan
   lines, which the parsing side uses. *)
From OxiVerif Require Import Base.Common Base.ListFacts Spec.Adam7 Spec.Sem Spec.Decode Model.Types Model.ScanLines Model.Filters Proofs.Bridge
  Proofs.ScanProofs Proofs.ImageLift Proofs.LiftReductions Proofs.LiftColor Proofs.LiftLines Proofs.FilterImage.
Local Open Scope Z_scope.

Lemma cut_filtered_rows L lines : Forall2 (fun lay l => fst l = fst lay /\ length (snd l) = Z.to_nat (snd lay)) L lines ->
  forall rows, Forall2 (fun r l => exists ft buf, r = ft :: buf /\ 0 <= ft <= 4 /\ length buf = length (l_data l)) rows (map to_scanline lines) ->
  cut_filtered L (concat rows) = Some (combine (map l_pass (map to_scanline lines)) rows).
Proof.
  induction 1 as [|[[p n] nb] l L' ls [Hf Hl] _ IH]; intros rows F; cbn [map] in F; inversion F as [|r ? rs ? (ft & buf & -> & _ & Hbl) F']; subst;
    cbn [cut_filtered concat combine map]; [reflexivity|].
  cbn [fst snd to_scanline l_data l_pass] in *. rewrite <- Hl, <- Hbl. change (S (length buf)) with (length (ft :: buf)).
  rewrite app_length. destruct (Nat.ltb_spec (length (ft :: buf) + length (concat rs)) (length (ft :: buf))) as [|_]; [lia|].
  rewrite skipn_app, firstn_app, skipn_all, firstn_all, Nat.sub_diag, skipn_O, firstn_O, app_nil_r. cbn [app].
  rewrite (IH rs F'), Hf. reflexivity.
Qed.

Lemma bpp_bytes_filter_bpp img : depth_legal (spec_color_of (ctype (hdr img))) (depth (hdr img)) = true ->
  bpp_bytes img = filter_bpp (bpp (hdr img)).
Proof.
  intros Hl. unfold bpp_bytes, filter_bpp, bytes_per_channel, channels, bpp.
  destruct (ctype (hdr img)); cbn [spec_color_of depth_legal channels_per_pixel] in *;
    repeat (apply orb_true_iff in Hl; destruct Hl as [Hl|Hl]); apply Z.eqb_eq in Hl; rewrite Hl; reflexivity.
Qed.

Lemma spec_layout_lines w h b il : 1 <= w ->
  Forall (fun lay => snd lay = line_bytes b (snd (fst lay)) /\ 1 <= snd (fst lay)) (spec_layout w h b il).
Proof.
  intros Hw. unfold spec_layout. destruct il.
  - apply Forall_map. eapply Forall_impl; [|apply spec_lines_pos]. cbn. auto.
  - apply Forall_forall. intros lay Hlay. apply repeat_spec in Hlay. subst lay. cbn. auto.
Qed.

Lemma image_lines_ok w h b il data lines (adm : nat -> Prop) : 1 <= w -> bytes_ok data ->
  cut_layout (spec_layout w h b il) data = Some lines ->
  (forall npix, 1 <= npix -> adm (Z.to_nat (line_bytes b npix))) ->
  Forall (fun d => bytes_ok d /\ adm (length d)) (map snd lines).
Proof.
  intros Hw Hok Hcut Hadm. destruct (cut_layout_shape _ _ _ Hcut) as [Hshape ->]. apply Forall_concat in Hok.
  apply Forall_and; [exact Hok|]. apply Forall_map.
  refine (Forall2_Forall_r _ _ _ _ _ Hshape (spec_layout_lines w h b il Hw) _).
  intros lay l [_ Hlen] [Hb Hn]. cbn beta. rewrite Hlen, Hb. apply Hadm. exact Hn.
Qed.

Lemma pixel_fits_line b n : 1 <= b -> 1 <= n -> (filter_bpp b <= Z.to_nat (line_bytes b n))%nat.
Proof.
  intros Hb Hn. unfold filter_bpp, line_bytes, cdiv.
  assert (Hq : b / 8 * 8 <= b) by (pose proof (Z.mul_div_le b 8 ltac:(lia)); lia).
  assert (Hge : Z.max 1 (b / 8) <= (n * b + 8 - 1) / 8).
  { destruct (Z.max_spec 1 (b / 8)) as [[_ ->]|[_ ->]]; apply Z.div_le_lower_bound; nia. }
  lia.
Qed.

Lemma spec_unfilter_rows w h b il stream rows ls : 1 <= w -> 1 <= h -> 1 <= b ->
  cut_filtered (spec_layout w h b il) stream = Some rows -> Spec.Filter.spec_recon_seq (filter_bpp b) None rows = Some ls ->
  spec_unfilter w h b il stream = Some (concat ls).
Proof.
  intros Hw Hh Hb Ec Es. unfold spec_unfilter.
  destruct (Z.leb_spec w 0); [lia|]. destruct (Z.leb_spec h 0); [lia|]. destruct (Z.leb_spec b 0); [lia|]. cbn [orb].
  rewrite Ec, Es. reflexivity.
Qed.

Theorem filter_image_unfilters brute (img : image) f oa ab adm R stream pic :
  wf img -> sem img = Some pic ->
  (if oa && has_alpha (ctype (hdr img)) then Z.to_nat (bytes_per_channel img) else 0%nat) = ab ->
  rewrites (bpp_bytes img) ab adm R ->
  (forall npix, 1 <= npix -> adm (Z.to_nat (line_bytes (bpp (hdr img)) npix))) ->
  filter_image brute img f oa = Ok stream ->
  exists lines lines',
    cut_layout (spec_layout (width (hdr img)) (height (hdr img)) (bpp (hdr img)) (interlaced (hdr img))) (data img) = Some lines /\
    Forall (fun d => bytes_ok d /\ adm (length d)) (map snd lines) /\ Forall2 R (map snd lines) lines' /\
    spec_unfilter (width (hdr img)) (height (hdr img)) (bpp (hdr img)) (interlaced (hdr img)) stream = Some (concat lines').
Proof.
  intros [Hok _] Hsem Hab HR Hadm Hf.
  destruct (sem_some_cut _ _ Hsem) as (Hw & Hh & Hbpp & lines & Hcut).
  pose proof (sem_some_legal _ _ Hsem) as Hlegal.
  pose proof (scan_lines_is_layout img lines Hw Hh Hbpp Hcut) as Hsl.
  unfold filter_image in Hf. destruct (filter_image_rows brute img f oa) as [rows|?|?] eqn:Er; cbn [bind] in Hf; try discriminate.
  injection Hf as <-.
  pose proof (image_lines_ok _ _ _ _ _ _ adm Hw Hok Hcut Hadm) as Hall.
  destruct (filter_image_rows_ok brute img f oa ab adm R (map to_scanline lines) rows Hab HR Hsl) as (lines' & F2 & FR & Hseq);
    [rewrite Forall_map in Hall |- *; exact Hall|exact Er|].
  rewrite map_map in FR. exists lines, lines'. split; [exact Hcut|]. split; [exact Hall|]. split; [exact FR|].
  destruct (cut_layout_shape _ _ _ Hcut) as [Hshape _].
  rewrite (bpp_bytes_filter_bpp img Hlegal) in Hseq.
  exact (spec_unfilter_rows _ _ _ _ _ _ _ Hw Hh Hbpp (cut_filtered_rows _ _ Hshape rows F2) Hseq).
Qed.

Theorem filter_image_stream brute (img : image) f stream pic :
  wf img -> sem img = Some pic ->
  filter_image brute img f false = Ok stream ->
  spec_unfilter (width (hdr img)) (height (hdr img)) (bpp (hdr img)) (interlaced (hdr img)) stream = Some (data img).
Proof.
  intros Hwf Hsem Hf.
  destruct (filter_image_unfilters brute img f false _ _ eq stream pic Hwf Hsem eq_refl (rewrites_exact _)) as (lines & lines' & Hcut & _ & FR & Hunf); [|exact Hf|].
  - intros npix Hn. rewrite (bpp_bytes_filter_bpp img (sem_some_legal _ _ Hsem)).
    destruct (sem_some_cut _ _ Hsem) as (_ & _ & Hbpp & _). apply pixel_fits_line; assumption.
  - apply (Forall2_eq eq _ _ (fun _ _ E => E)) in FR. subst lines'. destruct (cut_layout_shape _ _ _ Hcut) as [_ ->]. exact Hunf.
Qed.

Theorem filter_image_decodes brute (img : image) f stream pic :
  wf img -> sem img = Some pic ->
  filter_image brute img f false = Ok stream ->
  spec_decode_stream (width (hdr img)) (height (hdr img)) (spec_color_of (ctype (hdr img))) (depth (hdr img)) (interlaced (hdr img)) stream = Some pic.
Proof.
  intros Hwf Hsem Hf. unfold spec_decode_stream. rewrite spec_channels_of. fold (bpp (hdr img)).
  rewrite (filter_image_stream brute img f stream pic Hwf Hsem Hf). exact Hsem.
Qed.
