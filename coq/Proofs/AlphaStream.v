(* C03 at stream level: with the alpha optimisation on, the inflated IDAT content that filter_image produces for a decodable image
   is accepted by the specification's decoder and decodes to a picture alpha-equivalent to what the image means;
   filter_image_decodes_aequiv covers both settings of the switch. *)
From OxiVerif Require Import Base.Common Base.ListFacts Spec.Sem Spec.Decode Model.Types Model.Filters Proofs.Bridge Proofs.PixelProofs
  Proofs.ImageLift Proofs.LiftReductions Proofs.LiftColor Proofs.LiftAlpha Proofs.FilterStream Proofs.AlphaLine Proofs.FilterImageAlpha.
Local Open Scope Z_scope.

Lemma transparent_pxcol c d px : d = 8 \/ d = 16 -> has_alpha c = true -> bytes_ok px ->
  length px = (Z.to_nat (channels_per_pixel c) * bpc d)%nat ->
  all_zero (skipn ((Z.to_nat (channels_per_pixel c) - 1) * bpc d) px) = true ->
  exists r g b, pxcol (spec_color_of c) d px = Some (r, g, b, 0).
Proof.
  intros Hd Ha Hok Hl Hz.
  destruct (alpha_pixel_view c d px Hd Hok Hl) as (cs & a & _ & Ea & Hn & _ & _ & Hla & Hoka & ->).
  rewrite Ea in Hz. destruct (sample_facts d a Hd Hla Hoka) as (_ & H0 & _). rewrite (H0 Hz).
  destruct c; try discriminate; cbn in Hn.
  - destruct cs as [|v [|? ?]]; try discriminate Hn. eexists _, _, _. reflexivity.
  - destruct cs as [|r [|g [|b [|? ?]]]]; try discriminate Hn. eexists _, _, _. reflexivity.
Qed.

Theorem sem_rel_aequiv (img img' : image) (B : nat) pic : (0 < B)%nat -> hdr img' = hdr img ->
  depth (hdr img) * channels_per_pixel (ctype (hdr img)) = 8 * Z.of_nat B ->
  length (data img') = length (data img) ->
  Forall2 (fun px px' => aequiv (pxcol (spec_color_of (ctype (hdr img))) (depth (hdr img)) px) (pxcol (spec_color_of (ctype (hdr img))) (depth (hdr img)) px'))
    (chunks_exact B (data img)) (chunks_exact B (data img')) ->
  sem img = Some pic -> exists pic', sem img' = Some pic' /\ pic_aequiv pic pic'.
Proof.
  intros HB Hh Hbits Hlen HF Hsem. unfold sem in *. rewrite Hh.
  rewrite spec_sem_gsem in Hsem. rewrite spec_sem_gsem.
  destruct (negb (depth_legal (spec_color_of (ctype (hdr img))) (depth (hdr img)))); [discriminate|].
  rewrite spec_channels_of in *. rewrite Hbits in *.
  destruct (gsem_some_length _ _ _ _ B _ _ HB Hsem) as [k Hk].
  destruct (chunks_exact_spec B (data img) k HB Hk) as (Hc & Hu & Hn).
  destruct (chunks_exact_spec B (data img') k HB ltac:(congruence)) as (Hc' & Hu' & Hn').
  rewrite <- Hc in Hsem. rewrite <- Hc'.
  exact (aequiv_gsem _ _ _ _ _ B B (chunks_exact B (data img)) (chunks_exact B (data img')) pic HB HB Hu Hu' HF Hsem).
Qed.

Lemma line_rel_concat B cb ls ls' : (0 < B)%nat -> Forall (fun l => exists k, length l = (k * B)%nat) ls ->
  Forall2 (line_rel B cb) ls ls' -> line_rel B cb (concat ls) (concat ls').
Proof.
  intros HB Hm F.
  assert (Hm' : Forall (fun l => bytes_ok l /\ exists k, length l = (k * B)%nat) ls').
  { refine (Forall2_Forall_r _ _ _ _ _ F Hm _). intros a b (L & Bb & _) [k Hk]. split; [exact Bb|exists k; congruence]. }
  apply Forall_and_inv in Hm'. destruct Hm' as [Hb' Hm'].
  split; [|split].
  - apply Forall2_concat_length. eapply Forall2_impl; [|exact F]. intros a b (L & _). exact L.
  - apply Forall_concat. exact Hb'.
  - rewrite !chunks_exact_concat_lines by assumption. apply Forall2_concat, Forall2_map_both.
    eapply Forall2_impl; [|exact F]. intros a b (_ & _ & Fp). exact Fp.
Qed.

Lemma alpha_sizes img : has_alpha (ctype (hdr img)) = true -> depth (hdr img) = 8 \/ depth (hdr img) = 16 ->
  bpp (hdr img) = 8 * Z.of_nat (bpp_bytes img) /\ (1 <= Z.to_nat (bytes_per_channel img) <= bpp_bytes img)%nat /\
  bpp_bytes img = (Z.to_nat (channels_per_pixel (ctype (hdr img))) * bpc (depth (hdr img)))%nat /\
  (bpp_bytes img - Z.to_nat (bytes_per_channel img) = (Z.to_nat (channels_per_pixel (ctype (hdr img))) - 1) * bpc (depth (hdr img)))%nat.
Proof.
  unfold bpp_bytes, bytes_per_channel, channels, bpp. intros Ha [Hd|Hd]; rewrite Hd; destruct (ctype (hdr img)); try discriminate;
    (split; [reflexivity|split; [cbn; lia|split; reflexivity]]).
Qed.

Theorem line_rel_aequiv img data' pic : bytes_ok (data img) -> has_alpha (ctype (hdr img)) = true -> sem img = Some pic ->
  line_rel (bpp_bytes img) (bpp_bytes img - Z.to_nat (bytes_per_channel img)) (data img) data' ->
  exists pic', sem {| hdr := hdr img; data := data' |} = Some pic' /\ pic_aequiv pic pic'.
Proof.
  intros Hok Ha Hsem (Hlen & _ & HF).
  pose proof (legal_8_16 _ _ (sem_some_legal _ _ Hsem) (or_intror Ha)) as Hd.
  destruct (alpha_sizes img Ha Hd) as (HB & Hab & EB & Ecb).
  apply (sem_rel_aequiv img {| hdr := hdr img; data := data' |} (bpp_bytes img) pic ltac:(lia) eq_refl HB Hlen); [|exact Hsem].
  cbn [data]. eapply Forall2_strengthen; [exact (chunks_exact_bytes _ (data img) Hok)|exact HF|]. cbn beta.
  intros px px' [Hl Hb] [->|(Z1 & S1 & L1 & B1)]; [apply (orel_refl aeq), rgba_alpha_equivb_refl|]. rewrite Ecb in Z1, S1. rewrite EB in Hl.
  destruct (transparent_pxcol _ _ px Hd Ha Hb Hl Z1) as (r & g & b & E).
  destruct (transparent_pxcol _ _ px' Hd Ha B1 ltac:(rewrite L1; exact Hl) ltac:(rewrite S1; exact Z1)) as (r' & g' & b' & E').
  rewrite E, E'. apply (orel_of_match aeq). reflexivity.
Qed.

Theorem filter_image_alpha_decodes brute (img : image) f stream pic :
  wf img -> sem img = Some pic -> has_alpha (ctype (hdr img)) = true ->
  filter_image brute img f true = Ok stream ->
  exists pic', spec_decode_stream (width (hdr img)) (height (hdr img)) (spec_color_of (ctype (hdr img))) (depth (hdr img)) (interlaced (hdr img)) stream = Some pic'
    /\ pic_aequiv pic pic'.
Proof.
  intros Hwf Hsem Ha Hf. pose proof Hwf as [Hok _].
  destruct (alpha_sizes img Ha (legal_8_16 _ _ (sem_some_legal _ _ Hsem) (or_intror Ha))) as (HB & [Hab1 Hab2] & _).
  destruct (filter_image_unfilters brute img f true (Z.to_nat (bytes_per_channel img)) _ _ stream pic Hwf Hsem ltac:(rewrite Ha; reflexivity)
              (rewrites_alpha (bpp_bytes img) _ Hab1 Hab2)) as (lines & lines' & Hcut & Hall & FR & Hunf); [|exact Hf|].
  { intros npix Hn. exists (Z.to_nat npix). split; [lia|]. rewrite HB, line_bytes_aligned by lia. lia. }
  unfold spec_decode_stream. rewrite spec_channels_of. fold (bpp (hdr img)). rewrite Hunf.
  apply (line_rel_aequiv img (concat lines') pic Hok Ha Hsem).
  destruct (cut_layout_shape _ _ _ Hcut) as [_ ->]. apply line_rel_concat; [lia| |exact FR].
  eapply Forall_impl; [|exact Hall]. intros d (_ & k & _ & E). exists k. exact E.
Qed.

Lemma filter_image_alpha_noalpha brute img f oa : oa && has_alpha (ctype (hdr img)) = false ->
  filter_image brute img f oa = filter_image brute img f false.
Proof. intros H. unfold filter_image, filter_image_rows. rewrite H. reflexivity. Qed.

Theorem filter_image_decodes_aequiv brute (img : image) f oa stream pic :
  wf img -> sem img = Some pic -> filter_image brute img f oa = Ok stream ->
  exists pic', spec_decode_stream (width (hdr img)) (height (hdr img)) (spec_color_of (ctype (hdr img))) (depth (hdr img)) (interlaced (hdr img)) stream = Some pic'
    /\ pic_aequiv pic pic' /\ (oa = false -> pic' = pic).
Proof.
  intros Hwf Hsem Hf. destruct (oa && has_alpha (ctype (hdr img))) eqn:E.
  - apply andb_prop in E. destruct E as [-> Eha].
    destruct (filter_image_alpha_decodes _ _ _ _ _ Hwf Hsem Eha Hf) as (pic' & E & A). exists pic'. repeat split; [exact E|exact A|discriminate].
  - rewrite filter_image_alpha_noalpha in Hf by exact E.
    exists pic. repeat split; [exact (filter_image_decodes _ _ _ _ _ Hwf Hsem Hf)|apply pic_aequiv_refl].
Qed.
