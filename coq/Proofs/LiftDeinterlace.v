(* deinterlace_image keeps the meaning of an image.
   - Forall2_flat_map_split, interlaced_lines: the scan lines of an interlaced image are one block of lines per pass.
   - deinterlace_sem: the state machine of src/interlace.rs computes the specification's de-interlacing of the pass lines
     (DeinterlaceLink); stated for any representation P of a pixel, given how a scan line is split into pixels and how a
     row of pixels is coded as a scan line, both agreeing with the specification's reading of a line (line_pixels).
   - the two variants of the source as instances: pixels as groups of bpp bits (deinterlace_bits_sem), and, for bpp >= 8,
     as groups of bpp / 8 bytes (deinterlace_bytes_sem); deinterlace_image_sem chooses between them as the source does. *)
From OxiVerif Require Import Base.Common Base.ListFacts Spec.Adam7 Spec.Sem Model.Types Model.ScanLines Model.Interlace Proofs.Adam7Geom
  Proofs.Bridge Proofs.ImageLift Proofs.LiftColor Proofs.LiftLines Proofs.LiftBits Proofs.LiftInterlace Proofs.DeinterlaceCore
  Proofs.DeinterlaceStep Proofs.DeinterlaceLink.
Local Open Scope Z_scope.

Lemma Forall2_flat_map_split {P B C} (R : B -> C -> Prop) (f : P -> list B) (eqb : P -> P -> bool) :
  (forall a b, eqb a b = true <-> a = b) -> forall ps l, NoDup ps -> Forall2 R (flat_map f ps) l ->
  exists g : P -> list C, l = flat_map g ps /\ (forall p, In p ps -> Forall2 R (f p) (g p)) /\ (forall p, ~ In p ps -> g p = []).
Proof.
  intros Heq. induction ps as [|p t IH]; intros l Hnd H; cbn [flat_map] in H.
  - inversion H; subst. exists (fun _ => []). repeat split; intros p [].
  - apply Forall2_app_inv_l in H. destruct H as (a & b & Ha & Hb & ->).
    inversion Hnd as [|? ? Hnotin Hnd']; subst.
    destruct (IH b Hnd' Hb) as (g & -> & Hg & Hg0).
    exists (fun q => if eqb q p then a else g q).
    assert (Hp : (if eqb p p then a else g p) = a) by (rewrite (proj2 (Heq p p) eq_refl); reflexivity).
    assert (Hq : forall q, q <> p -> (if eqb q p then a else g q) = g q).
    { intros q Hne. destruct (eqb q p) eqn:E; [apply Heq in E; contradiction|reflexivity]. }
    split; [|split].
    + cbn [flat_map]. rewrite Hp. f_equal. apply flat_map_ext_in. intros q Hin. symmetry. apply Hq. intros ->. contradiction.
    + intros q [<-|Hin]; [rewrite Hp; exact Ha|]. rewrite Hq by (intros ->; contradiction). apply Hg, Hin.
    + intros q Hin. rewrite Hq by (intros ->; apply Hin; left; reflexivity). apply Hg0. intros Hin'. apply Hin. right. exact Hin'.
Qed.

Lemma interlaced_lines w h b (lines : list (option Z * Z * list Z)) :
  Forall2 (fun lay l => fst l = fst lay /\ length (snd l) = Z.to_nat (snd lay)) (spec_layout w h b true) lines ->
  exists LB : Z -> list (list Z), lines = pass_tagged w LB /\
    forall p, In p passes7 -> length (LB p) = pass_count w h p /\ Forall (fun tl => length tl = Z.to_nat (line_bytes b (pw w p))) (LB p).
Proof.
  rewrite spec_layout_passes. intros Hs.
  destruct (Forall2_flat_map_split _ _ Z.eqb Z.eqb_eq passes7 lines passes7_nodup Hs) as (g & -> & Hg & _).
  pose proof (fun p Hp => Forall2_repeat_l _ _ _ _ (Hg p Hp)) as Hb.
  exists (fun p => map snd (g p)). split.
  - apply flat_map_ext_in. intros p Hp. destruct (Hb p Hp) as [_ HF].
    rewrite map_map, <- (map_id (g p)) at 1. apply map_ext_Forall. revert HF. apply Forall_impl. intros [pn tl] [E _]. cbn [fst snd] in *. rewrite E. reflexivity.
  - intros p Hp. destruct (Hb p Hp) as [Hn HF]. rewrite map_length. split; [exact Hn|].
    apply Forall_map. revert HF. apply Forall_impl. intros l [_ Hl]. exact Hl.
Qed.

Lemma pass_count_active w h p : In p passes7 ->
  (active w h p -> pass_count w h p = Z.to_nat (ph h p)) /\ (~ active w h p -> pass_count w h p = 0%nat).
Proof.
  intros Hp. pose proof (pw_pos w p) as Pw. pose proof (ph_pos h p) as Ph.
  pose proof (pw_nonneg w p).
  unfold pass_count, active. destruct (Z.eqb_spec (pw w p) 0); split; intros; try reflexivity; lia.
Qed.

Section Pixels.
Context {P : Type} (blank : P) (limit : bool) (cut_px : list Z -> list P) (enc : list P -> list Z) (dec : P -> list bool)
  (okpx : P -> Prop) (img : image).
Let w := width (hdr img).
Let h := height (hdr img).
Let b := bpp (hdr img).

(* cutting a scan line of n pixels gives (at least, without a limit exactly) n pixels, which are the specification's *)
Hypothesis cut_px_ok : forall n tl, 0 <= n -> bytes_ok tl -> length tl = Z.to_nat (line_bytes b n) ->
  (Z.to_nat n <= length (cut_px tl))%nat /\ (limit = false -> length (cut_px tl) = Z.to_nat n) /\
  map dec (if limit then firstn (Z.to_nat n) (cut_px tl) else cut_px tl) = line_pixels b n tl /\ Forall okpx (cut_px tl).
Hypothesis enc_ok : forall n ln, 0 <= n -> length ln = Z.to_nat n -> Forall okpx ln -> line_coded enc dec b n ln.

Theorem deinterlace_sem pic sl rows : wf img -> interlaced (hdr img) = true -> sem img = Some pic ->
  scan_lines img false = Ok sl -> model_deinterlace blank w h limit (map (fun l => cut_px (l_data l)) sl) = Ok rows ->
  let img' := {| hdr := with_interlaced (hdr img) false; data := flat_map enc rows |} in sem img' = Some pic /\ wf img'.
Proof.
  intros [Hok Hwf] Hil Hsem Hsl Hd.
  destruct (sem_some_cut _ _ Hsem) as (Hw & Hh & Hb & lines & Hcut).
  rewrite (scan_lines_is_layout img lines Hw Hh Hb Hcut) in Hsl. injection Hsl as <-.
  pose proof (cut_lines_Forall _ _ _ Hok Hcut) as Hlok. rewrite Hil in Hcut. fold w h b in Hw, Hh, Hb, Hcut.
  (* the input: one block of lines per pass *)
  destruct (cut_layout_shape _ _ _ Hcut) as [Hs _]. destruct (interlaced_lines _ _ _ _ Hs) as (LB & -> & HLB).
  assert (Hline : forall p, In p passes7 -> Forall (fun tl => line_ok w limit p (cut_px tl) /\
            map dec (eff w limit p (cut_px tl)) = line_pixels b (pw w p) tl /\ Forall okpx (eff w limit p (cut_px tl))) (LB p)).
  { intros p Hp. destruct (HLB p Hp) as [_ HF]. pose proof (proj1 (Forall_tagged _ _ _) Hlok p Hp) as HB.
    rewrite Forall_forall in HF, HB. apply Forall_forall. intros tl Htl.
    destruct (cut_px_ok (pw w p) tl (pw_nonneg w p) (HB tl Htl) (HF tl Htl)) as (Hge & Heq & Hdec & Hpx).
    split; [split; assumption|]. split; [exact Hdec|]. unfold eff. destruct limit; [apply Forall_firstn|]; exact Hpx. }
  (* the model de-interlaces the blocks of lines cut into pixels *)
  set (MB := fun p => map cut_px (LB p)).
  assert (Epls : map (fun l => cut_px (l_data l)) (map to_scanline (pass_tagged w LB)) = flat_map MB passes7).
  { rewrite map_map. unfold pass_tagged. rewrite map_flat_map. apply flat_map_ext. intros p. apply map_map. }
  rewrite Epls in Hd.
  destruct (model_deinterlace_is_spec blank w h limit Hw Hh MB) as (G & EG & ES & GL & GF).
  { intros p Hp Hact. unfold MB. rewrite map_length. destruct (HLB p Hp) as [-> _].
    split; [apply (pass_count_active w h p Hp); exact Hact|]. apply Forall_map. generalize (Hline p Hp). apply Forall_impl. intros tl [Hk _]. exact Hk. }
  { intros p Hp Hna. unfold MB. destruct (HLB p Hp) as [Hn _]. rewrite (proj2 (pass_count_active w h p Hp) Hna) in Hn.
    destruct (LB p); [reflexivity|discriminate]. }
  rewrite EG in Hd. injection Hd as <-.
  (* the pixels of the input are those of the de-interlaced rows *)
  assert (Hin : spec_image_pixels w h b true (data img) = Some (map (map dec) G)).
  { rewrite (spec_image_pixels_cut _ _ _ _ _ _ Hw Hh Hb Hcut), (pass_tagged_map w LB (line_pixels b)), assemble_tagged.
    rewrite (map_ext_in _ (fun p => map (map dec) (map (eff w limit p) (MB p)))).
    - rewrite <- (map_map (fun p => map (eff w limit p) (MB p)) (map (map dec))), spec_deinterlace_map, ES. reflexivity.
    - intros p Hp. unfold MB. rewrite !map_map. symmetry. apply map_ext_Forall. generalize (Hline p Hp). apply Forall_impl. intros tl (_ & E & _). exact E. }
  assert (HG : Forall (Forall okpx) G).
  { assert (HE : Forall (fun l => Forall okpx (snd l)) (pass_tagged w (fun p => map (eff w limit p) (MB p)))).
    { apply Forall_tagged. intros p Hp. unfold MB. rewrite map_map. apply Forall_map. generalize (Hline p Hp). apply Forall_impl. intros tl (_ & _ & E). exact E. }
    rewrite <- assemble_tagged in ES. exact (assemble_Forall _ _ _ _ _ _ ES HE). }
  (* the output: the rows, coded line by line *)
  set (plines := map (fun r => (@None Z, w, r)) G).
  assert (Hcoded : Forall (fun l => line_coded enc dec b (snd (fst l)) (snd l)) plines).
  { apply Forall_map. rewrite Forall_forall in GF, HG. apply Forall_forall. intros r Hr. cbn [fst snd]. apply enc_ok; [lia|apply GF; exact Hr|apply HG; exact Hr]. }
  assert (Ed : flat_map (fun l => enc (snd l)) plines = flat_map enc G)
    by (unfold plines; rewrite flat_map_map; apply flat_map_ext; reflexivity).
  rewrite <- Ed, <- Hsem.
  apply (coded_image_sem enc dec img false plines (conj Hok Hwf) Hw Hh Hb); [|exact Hcoded|].
  { fold w h b. unfold spec_layout, plines. rewrite map_map, <- GL. cbn [fst snd]. symmetry. apply map_constant. }
  fold w h b. rewrite Hil, Hin. unfold assemble, plines. rewrite map_map. cbn [snd option_map]. rewrite map_id. reflexivity.
Qed.
End Pixels.

Theorem deinterlace_bits_sem img pic d : wf img -> interlaced (hdr img) = true -> sem img = Some pic ->
  deinterlace_bits img = Ok d ->
  let img' := {| hdr := with_interlaced (hdr img) false; data := d |} in sem img' = Some pic /\ wf img'.
Proof.
  intros Hwf Hil Hsem Hd. destruct (sem_some_cut _ _ Hsem) as (_ & _ & Hb & _).
  unfold deinterlace_bits in Hd. cbv zeta in Hd. set (bn := Z.to_nat (bpp (hdr img))) in *.
  apply bind_Ok in Hd. destruct Hd as (sl & Hsl & Hd). apply bind_Ok in Hd. destruct Hd as (rows & Hm & Hd). injection Hd as <-.
  apply (deinterlace_sem (repeat false bn) true (fun tl => chunks_exact bn (bits_of_bytes tl))
           (fun r => bytes_of_bits (concat r)) (fun px => px) (fun px => length px = bn) img) with (sl := sl); try assumption.
  - intros n tl Hn _ Hl. rewrite bits_of_bytes_spec, <- groups_is_chunks_exact, map_id.
    split; [apply (line_whole_pixels _ n tl Hb Hn Hl)|].
    split; [discriminate|]. split; [reflexivity|apply groups_lengths].
  - intros n ln Hn Hl Hpx. apply packed_line_coded; assumption.
Qed.

Lemma bpp_multiple_of_8 img : depth_legal (spec_color_of (ctype (hdr img))) (depth (hdr img)) = true -> 8 <= bpp (hdr img) ->
  bpp (hdr img) = 8 * Z.of_nat (Z.to_nat (bpp (hdr img) / 8)) /\ (0 < Z.to_nat (bpp (hdr img) / 8))%nat.
Proof.
  unfold bpp. intros Hl Hb.
  destruct (ctype (hdr img)); cbn [spec_color_of depth_legal channels_per_pixel] in *;
    repeat (apply orb_true_iff in Hl; destruct Hl as [Hl|Hl]); apply Z.eqb_eq in Hl; rewrite Hl in *; clear Hl; Z.div_mod_to_equations; lia.
Qed.

Theorem deinterlace_bytes_sem img pic d : wf img -> interlaced (hdr img) = true -> sem img = Some pic ->
  8 <= bpp (hdr img) -> deinterlace_bytes img = Ok d ->
  let img' := {| hdr := with_interlaced (hdr img) false; data := d |} in sem img' = Some pic /\ wf img'.
Proof.
  intros Hwf Hil Hsem Hb8 Hd. destruct (bpp_multiple_of_8 img (sem_some_legal _ _ Hsem) Hb8) as [HbB HB0].
  unfold deinterlace_bytes in Hd. cbv zeta in Hd. set (B := Z.to_nat (bpp (hdr img) / 8)) in *.
  apply bind_Ok in Hd. destruct Hd as (sl & Hsl & Hd). apply bind_Ok in Hd. destruct Hd as (rows & Hm & Hd). injection Hd as <-.
  rewrite <- flat_map_concat_map.
  apply (deinterlace_sem (repeat 0 B) false (chunks B) (@concat Z) sbits_of_bytes (fun px => length px = B /\ bytes_ok px) img) with (sl := sl); try assumption.
  - intros n tl Hn Hok Hl. rewrite HbB, line_bytes_aligned in Hl by exact Hn.
    destruct (chunks_exact_spec B tl (Z.to_nat n) HB0 ltac:(lia)) as (C1 & C2 & C3).
    rewrite (chunks_multiple B (Z.to_nat n)) by lia. split; [lia|]. split; [intros _; exact C3|]. split.
    + rewrite <- C1 at 2. rewrite HbB. symmetry. apply line_pixels_aligned; assumption.
    + rewrite Forall_forall in C2. apply Forall_forall. intros px Hpx. split; [apply C2; exact Hpx|eapply bytes_ok_chunk; eassumption].
  - intros n ln Hn Hl Hpx.
    assert (Hu : Forall (fun px => length px = B) ln) by (revert Hpx; apply Forall_impl; intros px [E _]; exact E).
    split; [|split].
    + rewrite HbB, line_bytes_aligned, (concat_length_uniform B), Hl by assumption. lia.
    + rewrite HbB. apply line_pixels_aligned; assumption.
    + apply Forall_concat. revert Hpx. apply Forall_impl. intros px [_ E]. exact E.
Qed.

Theorem deinterlace_image_sem img img' pic : wf img -> interlaced (hdr img) = true ->
  deinterlace_image img = Ok img' -> sem img = Some pic -> sem img' = Some pic /\ wf img'.
Proof.
  intros Hwf Hil H Hsem. unfold deinterlace_image in H. apply bind_Ok in H. destruct H as (d & E & H). injection H as <-.
  destruct (Z.leb_spec 8 (bpp (hdr img))); [apply deinterlace_bytes_sem|apply deinterlace_bits_sem]; assumption.
Qed.
