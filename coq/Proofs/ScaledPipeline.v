(* C15 through the pipeline: with scale_16 on (bit-depth reduction enabled and the clock not expired at that step), the
   baseline and every candidate handed to the evaluator mean the input picture with every pixel rounded. *)
From OxiVerif Require Import Base.Common Spec.Sem Model.Types Model.Options Model.ScanLines Model.BitDepth Model.Reductions Proofs.Bridge
  Proofs.PixelProofs Proofs.LiftReductions Proofs.LiftColor Proofs.LiftPalette Proofs.LiftBits Proofs.LiftMzeng Proofs.LiftBattiato
  Proofs.EffectProofs Proofs.ReductionInv Proofs.PipelineLossless Proofs.ScaledPicture.

Definition scaled_picture (img : image) (pic : picture) : picture :=
  pic_map (scaled_px (spec_color_of (ctype (hdr img)))) pic.

Lemma key16_skey c : key16_ok c -> skey_ok (spec_color_of c).
Proof. destruct c as [[k|]|[[[r g] b]|]|pal| |]; cbn; auto. Qed.

Lemma sem_scaled_is_map img : key16_ok (ctype (hdr img)) -> depth (hdr img) = 16 ->
  sem_scaled img = option_map (scaled_picture img) (sem img).
Proof.
  intros Hk Hd. unfold sem_scaled, sem, scaled_picture. rewrite Hd. apply spec_sem_scaled_is_map. apply key16_skey. exact Hk.
Qed.

Theorem scaled_16_to_8_means img img' pic : means pic img ->
  scaled_bit_depth_16_to_8 img = Some img' -> means (scaled_picture img pic) img'.
Proof.
  intros [Hwf Hsem] Hred.
  assert (Hd : depth (hdr img) = 16).
  { unfold scaled_bit_depth_16_to_8 in Hred. destruct (depth (hdr img) =? 16) eqn:E; [apply Z.eqb_eq; exact E|discriminate]. }
  pose proof (wf_key16 _ _ Hwf Hsem Hd) as Hk.
  split.
  - unfold scaled_bit_depth_16_to_8 in Hred. rewrite Hd in Hred. change (16 =? 16) with true in Hred. cbn [negb] in Hred.
    injection Hred as <-. destruct Hwf as [Hok Hwfc]. split.
    + apply bytes_ok_map_pairs; [|exact Hok]. intros p H1 H2. apply scale_16_to_8_range. unfold byte_ok, u16 in *. lia.
    + apply wf_ctype_16_to_8; [|exact Hk]. intros v w Hv [= <-]. exact (scale_16_to_8_range v Hv).
  - eapply scaled_16_to_8_sem; eauto; [apply Hwf|]. rewrite sem_scaled_is_map by assumption. rewrite Hsem. reflexivity.
Qed.

Definition cand_scaled (spic : picture) (ev : rd_event) : Prop :=
  match ev with EvSubmit i _ => means spic i /\ depth (hdr i) <= 8 | _ => True end.

Lemma eff_8_or_less_depth i r : bytes_ok (data i) -> reduced_bit_depth_8_or_less i = Ok (Some r) -> depth (hdr r) < 8.
Proof.
  intros Hok H. unfold reduced_bit_depth_8_or_less in H. cbv zeta in H.
  destruct (negb (depth (hdr i) =? 8) || negb (channels i =? 1)); [discriminate|].
  match type of H with (match ?mb with _ => _ end) = _ => destruct mb as [bits|] eqn:Emb; [|discriminate] end.
  destruct (scan_lines i false); cbn [bind] in H; try discriminate. injection H as <-. cbn [hdr depth with_depth].
  assert (Hb : In bits depths_lt8).
  { destruct (ctype (hdr i)) as [key|key|pal| |]; try apply (gray_min_bits_spec (data i) 1 bits ltac:(cbn; auto) Hok Emb).
    (* indexed: by the size of the palette *)
    destruct (Nat.leb (length pal) 2); [injection Emb as <-; cbn; auto|].
    destruct (Nat.leb (length pal) 4); [injection Emb as <-; cbn; auto|].
    destruct (Nat.leb (length pal) 16); [injection Emb as <-; cbn; auto|discriminate]. }
  destruct Hb as [<-|[<-|[<-|[]]]]; lia.
Qed.

Section Scaled.
Variable e : env.
Variable o : options.
Hypothesis Ha : optimize_alpha o = false.
Hypothesis Hs : scale_16 o = true.
Hypothesis Hbd : bit_depth_reduction o = true.
Hypothesis Hdl : dl e S16to8 = false.
Variable spic : picture.
Let P := fun i : image => means spic i /\ depth (hdr i) <= 8.

(* the shape of the image-level theorems, with what the transformation does to a depth of at most 8 *)
Lemma P_via {E : Prop} i r : (wf i -> E -> sem i = Some spic -> sem r = Some spic /\ wf r) ->
  (E -> wf i -> depth (hdr i) <= 8 -> depth (hdr r) <= 8) -> E -> P i -> P r.
Proof. intros Hsem Hd He [M D]. split; [exact (means_via _ _ _ Hsem He M)|exact (Hd He (proj1 M) D)]. Qed.

Lemma P_same_depth {E : Prop} i r : (wf i -> E -> sem i = Some spic -> sem r = Some spic /\ wf r) ->
  (E -> depth (hdr r) = depth (hdr i)) -> E -> P i -> P r.
Proof. intros Hsem Hd. apply P_via; [exact Hsem|]. intros He _. rewrite (Hd He). auto. Qed.

Theorem perform_reductions_scaled img pic baseline evs :
  means pic img -> depth (hdr img) = 16 -> spic = scaled_picture img pic ->
  perform_reductions e o img = Ok (baseline, evs) ->
  (means spic baseline /\ depth (hdr baseline) <= 8) /\ Forall (cand_scaled spic) evs.
Proof.
  intros Hm Hd Hsp H. unfold perform_reductions in H.
  apply bind_Ok in H as (st0 & E0 & H). apply bind_Ok in H as (st & Er & [= <- <-]).
  enough (I : inv P P P st) by (split; [apply I|apply Forall_rev, I]).
  (* the first block keeps meaning, depth and colour type *)
  destruct (eff_s_interlace _ _ _ E0) as (_ & _ & Hdp & Hcp & _).
  destruct (s_interlace_cases _ _ _ E0) as (png & -> & Hpng). cbn [r_png] in Hdp, Hcp. rewrite Hd in Hdp.
  assert (Hmp : means pic png) by (destruct Hpng as [->|(il & _ & Ec)]; [exact Hm|exact (interlace_means _ _ _ _ Hm Ec)]).
  (* s_clean_alpha: switched off *)
  apply bind_Ok in Er as (st1 & E1 & Er).
  unfold s_clean_alpha, guard in E1. rewrite Ha in E1. injection E1 as <-.
  (* s_16_to_8: scales *)
  apply bind_Ok in Er as (st2 & E2 & Er).
  unfold s_16_to_8, guard in E2. rewrite Hbd, Hdl in E2. cbn [negb r_png log_site] in E2.
  unfold reduced_bit_depth_16_to_8, scaled_bit_depth_16_to_8 in E2. rewrite Hs, Hdp in E2. injection E2 as <-.
  revert Er. apply (late_steps_inv P P (fun _ H => H) e o) with (B := fun _ => True).
  - intros _ _ i r. apply P_same_depth; [exact (reduced_rgb_to_grayscale_sem i r spic)|].
    intros Hr. exact (ctype_change_depth _ _ _ (proj1 (eff_rgb_gray _ _ Hr))).
  - intros _ i r. apply P_via; [exact (expanded_bit_depth_to_8_sem i r spic)|].
    intros Hr _ _. destruct (eff_expand _ _ Hr) as (_ & -> & _). reflexivity.
  - intros _ i r. rewrite Ha. apply P_same_depth; [exact (reduced_palette_sem i r spic)|].
    intros Hr. exact (palette_change_depth _ _ (eff_reduced_palette _ _ _ Hr)).
  - intros _ i r. apply P_same_depth; [exact (sorted_palette_sem i r spic)|].
    intros Hr. exact (palette_change_depth _ _ (eff_sorted_palette _ _ Hr)).
  - intros _ i r. rewrite Ha. apply P_same_depth; [exact (reduced_alpha_channel_sem i r spic)|].
    intros Hr. exact (ctype_change_depth true _ _ (proj1 (eff_alpha _ _ _ _ Hr))).
  - intros _ i r. rewrite Ha. apply P_same_depth; [exact (indexed_to_channels_sem i r _ spic)|].
    intros Hr. exact (channels_change_depth _ _ _ (proj1 (eff_to_channels _ _ _ _ Hr))).
  - intros _ i red Hr Hi.
    assert (Hred : P red).
    { revert Hr Hi. apply P_same_depth; [exact (reduced_to_indexed_sem i red _ spic)|].
      intros Hr. exact (ctype_change_depth _ _ _ (proj1 (eff_to_indexed _ _ _ Hr))). }
    split; [exact Hred|]. intros r Hr2. revert Hr2 Hred. apply P_same_depth; [exact (sorted_palette_sem red r spic)|].
    intros Hr2. exact (palette_change_depth _ _ (eff_sorted_palette _ _ Hr2)).
  - intros _ i r. apply P_same_depth; [exact (fun W H S => sorted_palette_battiato_sem i r spic W S H)|].
    intros Hr. exact (palette_change_depth _ _ (eff_battiato _ _ Hr)).
  - intros _ i r. apply P_same_depth; [exact (fun W H S => sorted_palette_mzeng_sem i r spic W S H)|].
    intros Hr. exact (palette_change_depth _ _ (eff_mzeng _ _ Hr)).
  - intros _ i r. apply P_via; [exact (reduced_bit_depth_8_or_less_sem i r spic)|].
    intros Hr W _. pose proof (eff_8_or_less_depth _ _ (proj1 W) Hr). lia.
  - constructor; cbn; [|exact I|discriminate|repeat constructor].
    split; [|cbn; lia]. rewrite Hsp. unfold scaled_picture. rewrite <- Hcp.
    apply scaled_16_to_8_means; [exact Hmp|]. unfold scaled_bit_depth_16_to_8. rewrite Hdp. reflexivity.
Qed.
End Scaled.
