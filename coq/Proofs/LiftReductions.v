(* The 16 -> 8 bit reductions, exact (C01) and scaled (C15): one image-level lemma for any per-sample conversion
   (sem_16_to_8), fed with the pixel-level lemmas of PixelProofs.v. Also the samples of a byte-aligned pixel at
   depth 8 and 16 (samples8, samples16) over the table of all bytes. *)
From OxiVerif Require Import Base.Common Base.ListFacts Spec.Sem Model.Types Model.BitDepth Proofs.Bridge Proofs.PixelProofs Proofs.ImageLift.

Lemma sval_app a b : sval (a ++ b) = sval a * 2 ^ Z.of_nat (length b) + sval b.
Proof.
  induction a as [|x a IH]; cbn [app sval]; [lia|]. rewrite IH, app_length, Nat2Z.inj_add, Z.pow_add_r by lia.
  destruct x; lia.
Qed.

Definition bytes256 : list Z := map Z.of_nat (seq 0 256).
Lemma in_bytes256 v : 0 <= v < 256 -> In v bytes256.
Proof. intros H. unfold bytes256. apply in_map_iff. exists (Z.to_nat v). split; [lia|]. apply in_seq. lia. Qed.
Lemma sval_byte_table : forallb (fun b => sval (sbits_of_byte b) =? b) bytes256 = true.
Proof. vm_compute. reflexivity. Qed.
Lemma sval_sbits_of_byte b : 0 <= b < 256 -> sval (sbits_of_byte b) = b.
Proof.
  intros Hb. pose proof sval_byte_table as T. rewrite forallb_forall in T. apply Z.eqb_eq, T, in_bytes256. exact Hb.
Qed.
Lemma sbits_of_byte_length b : length (sbits_of_byte b) = 8%nat.
Proof. reflexivity. Qed.

Lemma samples8 px : bytes_ok px -> map sval (groups 8 (sbits_of_bytes px)) = px.
Proof.
  intros Hok. rewrite groups_is_chunks_exact. induction Hok as [|b t Hb _ IH]; [reflexivity|].
  change (sbits_of_bytes (b :: t)) with (sbits_of_byte b ++ sbits_of_bytes t).
  rewrite chunks_exact_app by (reflexivity || lia). cbn [map]. rewrite IH, sval_sbits_of_byte by exact Hb. reflexivity.
Qed.

Lemma samples16 : forall (n : nat) px, length px = (2 * n)%nat -> bytes_ok px ->
  map sval (groups 16 (sbits_of_bytes px)) = map (fun p => fst p * 256 + snd p) (pairs px).
Proof.
  induction n as [|n IH]; intros [|hi [|lo px]] Hl Hok; try (cbn [length] in Hl; lia); [reflexivity|].
  apply bytes_ok_cons in Hok. destruct Hok as [Hhi Hok]. apply bytes_ok_cons in Hok. destruct Hok as [Hlo Hok].
  change (sbits_of_bytes (hi :: lo :: px)) with (sbits_of_byte hi ++ sbits_of_byte lo ++ sbits_of_bytes px).
  rewrite groups_is_chunks_exact, app_assoc, chunks_exact_app, <- groups_is_chunks_exact by (reflexivity || lia).
  cbn [map pairs fst snd]. rewrite IH, sval_app, !sval_sbits_of_byte by (assumption || (cbn [length] in Hl; lia)). reflexivity.
Qed.

Lemma pairs_app : forall (n : nat) (a b : list Z), length a = (2 * n)%nat -> pairs (a ++ b) = pairs a ++ pairs b.
Proof.
  induction n as [|n IH]; intros [|x [|y a]] b Ha; try (cbn [length] in Ha; lia); [reflexivity|].
  cbn [app pairs]. rewrite (IH a b) by (cbn [length] in Ha; lia). reflexivity.
Qed.

Lemma pairs_concat (B : nat) (pxs : list (list Z)) n : B = (2 * n)%nat -> Forall (fun px => length px = B) pxs ->
  pairs (concat pxs) = concat (map pairs pxs).
Proof.
  intros HB Hu. induction Hu as [|px t Hpx Ht IH]; cbn [concat map]; [reflexivity|].
  rewrite (pairs_app n) by lia. rewrite IH. reflexivity.
Qed.

Lemma pairs_length : forall (n : nat) l, length l = (2 * n)%nat -> length (pairs l) = n.
Proof.
  induction n as [|n IH]; intros [|x [|y l]] Hl; try (cbn [length] in Hl; lia); [reflexivity|].
  cbn [pairs length]. rewrite IH by (cbn [length] in Hl; lia). reflexivity.
Qed.

Lemma bytes_ok_pairs l : bytes_ok l -> Forall (fun p => byte_ok (fst p) /\ byte_ok (snd p)) (pairs l).
Proof.
  assert (G : forall n (l0 : list Z), (length l0 <= n)%nat -> bytes_ok l0 -> Forall (fun p => byte_ok (fst p) /\ byte_ok (snd p)) (pairs l0)).
  { induction n as [|n IH]; intros [|x [|y l0]] Hl Hok; cbn [pairs]; try constructor; try (cbn in Hl; lia).
    all: apply bytes_ok_cons in Hok; destruct Hok as [Hx Hok]; apply bytes_ok_cons in Hok; destruct Hok as [Hy Hok].
    - auto.
    - apply IH; [cbn in Hl; lia|exact Hok]. }
  apply (G (length l)). lia.
Qed.

Definition key16_ok (c : color_type) : Prop :=
  match c with
  | Gray (Some k) => u16 k
  | RGB (Some (r, g, b)) => u16 r /\ u16 g /\ u16 b
  | Indexed _ => False
  | _ => True
  end.

Lemma spec_channels_of c : spec_channels (spec_color_of c) = channels_per_pixel c.
Proof. destruct c; reflexivity. Qed.

Lemma channels_pos c : 1 <= channels_per_pixel c <= 4.
Proof. destruct c; cbn; lia. Qed.

Lemma depth_legal_16_to_8 c conv : depth_legal (spec_color_of (color_type_16_to_8 c conv)) 8 = true.
Proof. destruct c as [[k|]|[[[r g] b]|]|pal| |]; reflexivity. Qed.

Lemma channels_16_to_8 c conv : channels_per_pixel (color_type_16_to_8 c conv) = channels_per_pixel c.
Proof. destruct c as [[k|]|[[[r g] b]|]|pal| |]; reflexivity. Qed.

(* The 8-bit image takes sample f (hi, lo) for every two-byte sample of the 16-bit image, all of which satisfy P,
   and converts the colour key by conv; col is the colour read off the 16-bit samples of a pixel. What is asked of
   f is a fact about lists of samples. *)
Lemma sem_16_to_8 (P : Z * Z -> Prop) (f : Z * Z -> Z) conv (col : list Z -> option rgba16) img pic :
  gsem (width (hdr img)) (height (hdr img)) (16 * channels_per_pixel (ctype (hdr img))) (interlaced (hdr img))
       (fun bits => col (map sval (groups 16 bits))) (data img) = Some pic ->
  bytes_ok (data img) -> Forall P (pairs (data img)) ->
  (forall p, byte_ok (fst p) /\ byte_ok (snd p) -> P p -> byte_ok (f p)) ->
  (forall ps, Forall (fun p => byte_ok (fst p) /\ byte_ok (snd p)) ps -> Forall P ps ->
     color_of_samples (spec_color_of (color_type_16_to_8 (ctype (hdr img)) conv)) 8 (map f ps)
     = col (map (fun p => fst p * 256 + snd p) ps)) ->
  sem {| hdr := with_depth (with_ctype (hdr img) (color_type_16_to_8 (ctype (hdr img)) conv)) 8; data := map f (pairs (data img)) |}
  = Some pic.
Proof.
  intros Hsem Hok HP Hf Hcol. unfold sem. cbn [hdr data width height ctype depth interlaced with_depth with_ctype].
  set (c := ctype (hdr img)) in *. pose proof (channels_pos c) as Hch.
  set (B := Z.to_nat (2 * channels_per_pixel c)) in *. set (B' := Z.to_nat (channels_per_pixel c)).
  rewrite spec_sem_gsem, depth_legal_16_to_8, spec_channels_of, channels_16_to_8. cbn [negb].
  replace (8 * channels_per_pixel c) with (8 * Z.of_nat B') by lia.
  replace (16 * channels_per_pixel c) with (8 * Z.of_nat B) in Hsem by lia.
  destruct (gsem_some_length _ _ _ _ B _ _ ltac:(lia) Hsem) as [k Hlen].
  destruct (concat_of_multiple B k _ Hlen) as (pxs & E & Hu & _). rewrite E in *.
  rewrite (pairs_concat B pxs B') in * by (assumption || lia). rewrite concat_map, map_map.
  apply Forall_concat in Hok, HP. rewrite Forall_map in HP. rewrite Forall_forall in Hok, HP, Hu.
  refine (pixelwise_gsem _ _ _ _ _ B B' (fun px => map f (pairs px)) pxs pic _ _ _ _ Hsem); try lia; [apply Forall_forall; exact Hu|].
  intros px Hin. specialize (Hok px Hin). specialize (HP px Hin). specialize (Hu px Hin).
  pose proof (bytes_ok_pairs px Hok) as Hps.
  assert (Hok' : bytes_ok (map f (pairs px))).
  { apply Forall_map. eapply Forall_impl; [|exact (Forall_and Hps HP)]. intros p [Hp HPp]. exact (Hf p Hp HPp). }
  split; [rewrite map_length; apply pairs_length; lia|].
  unfold pixel_color. change (Z.to_nat 8) with 8%nat. rewrite samples8, (samples16 B') by (assumption || lia).
  apply Hcol; assumption.
Qed.

Lemma pixel_exact c bs : key16_ok c -> Forall byte_ok bs ->
  color_of_samples (spec_color_of (color_type_16_to_8 c exact_16_to_8)) 8 bs
  = color_of_samples (spec_color_of c) 16 (map (Z.mul 257) bs).
Proof.
  intros Hk Hb. rewrite Forall_forall in Hb. destruct c as [key|key|pal| |]; cbn [key16_ok] in Hk; [| |destruct Hk| |].
  - destruct bs as [|v [|? ?]]; try (destruct key; reflexivity).
    symmetry. apply pixel_16_to_8_gray; [intros k ->; exact Hk|apply Hb; cbn; auto].
  - destruct bs as [|r [|g [|b [|? ?]]]]; try (destruct key as [[[? ?] ?]|]; reflexivity).
    symmetry. apply pixel_16_to_8_rgb; [intros kr kg kb ->; exact Hk|..]; apply Hb; cbn; auto.
  - destruct bs as [|v [|a [|? ?]]]; try reflexivity.
    symmetry. apply pixel_16_to_8_gray_alpha; apply Hb; cbn; auto.
  - destruct bs as [|r [|g [|b [|a [|? ?]]]]]; try reflexivity.
    symmetry. apply pixel_16_to_8_rgba; apply Hb; cbn; auto.
Qed.

Theorem reduced_16_to_8_sem img img' pic :
  key16_ok (ctype (hdr img)) -> bytes_ok (data img) ->
  reduced_bit_depth_16_to_8 img false = Some img' ->
  sem img = Some pic -> sem img' = Some pic.
Proof.
  intros Hk Hok Hred Hsem. unfold reduced_bit_depth_16_to_8 in Hred.
  destruct (depth (hdr img) =? 16) eqn:Ed; cbn [negb] in Hred; [|discriminate]. apply Z.eqb_eq in Ed.
  destruct (existsb (fun p => negb (fst p =? snd p)) (pairs (data img))) eqn:Eex; [discriminate|]. injection Hred as <-.
  unfold sem in Hsem. rewrite Ed, spec_sem_gsem, spec_channels_of in Hsem.
  destruct (negb (depth_legal (spec_color_of (ctype (hdr img))) 16)); [discriminate|].
  apply (sem_16_to_8 (fun p => fst p = snd p) fst exact_16_to_8 (color_of_samples (spec_color_of (ctype (hdr img))) 16) _ _ Hsem);
    [exact Hok| |intros p [Hhi _] _; exact Hhi|].
  - apply Forall_forall. intros p Hp. apply Z.eqb_eq, negb_false_iff, not_true_is_false. intros E.
    apply not_true_iff_false in Eex. apply Eex, existsb_exists. eauto.
  - (* a sample with equal bytes is 257 times that byte *)
    intros ps Hps Heq. rewrite pixel_exact, map_map; [|exact Hk|apply Forall_map; eapply Forall_impl; [|exact Hps]; intros p Hp; apply Hp].
    f_equal. apply map_ext_Forall. eapply Forall_impl; [|exact Heq]. intros p E. rewrite <- E. lia.
Qed.

Definition sem_scaled (img : image) : option picture :=
  spec_sem_scaled (width (hdr img)) (height (hdr img)) (spec_color_of (ctype (hdr img))) (interlaced (hdr img)) (data img).

Lemma scale_16_to_8_range v : u16 v -> 0 <= scale_16_to_8 v < 256.
Proof. intros H. rewrite scale8_is_round8 by exact H. apply round8_nearest. exact H. Qed.

Lemma key16_ok_scaled c : key16_ok c ->
  match c with Gray (Some k) => u16 k | RGB (Some (r, g, b)) => u16 r /\ u16 g /\ u16 b | _ => True end.
Proof. destruct c as [[k|]|[[[r g] b]|]|pal| |]; cbn; auto. Qed.

Theorem scaled_16_to_8_sem img img' pic :
  key16_ok (ctype (hdr img)) -> bytes_ok (data img) ->
  scaled_bit_depth_16_to_8 img = Some img' ->
  sem_scaled img = Some pic -> sem img' = Some pic.
Proof.
  intros Hk Hok Hred Hsem. unfold scaled_bit_depth_16_to_8 in Hred.
  destruct (depth (hdr img) =? 16); cbn [negb] in Hred; [|discriminate]. injection Hred as <-.
  unfold sem_scaled in Hsem. rewrite spec_sem_scaled_gsem, spec_channels_of in Hsem.
  destruct (negb (depth_legal (spec_color_of (ctype (hdr img))) 16)); [discriminate|].
  assert (H16 : forall p, byte_ok (fst p) /\ byte_ok (snd p) -> u16 (fst p * 256 + snd p)) by (unfold byte_ok, u16; lia).
  apply (sem_16_to_8 (fun _ => True) (fun p => scale_16_to_8 (fst p * 256 + snd p)) (fun v => Some (scale_16_to_8 v))
           (fun vs => color_of_samples (round_key (spec_color_of (ctype (hdr img)))) 8 (map round8 vs)) _ _ Hsem);
    [exact Hok|apply Forall_forall; auto| |].
  - intros p Hp _. apply scale_16_to_8_range, H16, Hp.
  - intros ps Hps _. rewrite <- (map_map (fun p => fst p * 256 + snd p) scale_16_to_8).
    apply pixel_scaled; [apply key16_ok_scaled; exact Hk|]. apply Forall_map. eapply Forall_impl; [|exact Hps]. exact H16.
Qed.
