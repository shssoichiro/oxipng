(* Image-level semantic theorems for the byte-aligned colour-type reductions (C01, C03): RGB(A) -> gray(A),
   alpha channel removal (exact, or up to alpha-equivalence when a colour key replaces transparent pixels),
   truecolour/gray -> indexed, indexed -> channels.  Also the predicate `wf` (bytes in range, colour key and palette
   in range) that every image-level theorem of the development assumes and returns.
   Each theorem is obtained from a statement about one pixel through one lifting theorem, sem_pixels_rel, about an image
   whose colour type changes while its depth stays: if its pixels are good bytes and related to the old ones by `orel E`
   (decodable stays decodable, colours E-related), the result is well formed and its picture is related to the old one by
   `pic_rel E`; E is equality for the exact reductions.  Two skeletons put it in the form in which the model builds the data:
   channel_reduction (a function of the pixel, depth 8 or 16) and indexed_reduction (a function of the index byte, depth 8). *)
From OxiVerif Require Import Base.Common Base.ListFacts Spec.Sem Model.Types Model.Color Proofs.Bridge Proofs.PixelProofs Proofs.ImageLift
  Proofs.LiftReductions.

Definition rgba8_ok (c : rgba8) : Prop :=
  let '(r, g, b, a) := c in byte_ok r /\ byte_ok g /\ byte_ok b /\ byte_ok a.

(* the colour key only uses the bits a sample has; palette entries are bytes *)
Definition wf_ctype (c : color_type) (d : Z) : Prop :=
  match c with
  | Gray (Some k) => 0 <= k < 2 ^ d
  | RGB (Some (r, g, b)) => 0 <= r < 2 ^ d /\ 0 <= g < 2 ^ d /\ 0 <= b < 2 ^ d
  | Indexed pal => Forall rgba8_ok pal /\ (length pal <= 256)%nat
  | _ => True
  end.

Definition wf (img : image) : Prop := bytes_ok (data img) /\ wf_ctype (ctype (hdr img)) (depth (hdr img)).

Lemma flat_map_concat_map' {A B} (f : A -> list B) l : flat_map f l = concat (map f l).
Proof. apply flat_map_concat_map. Qed.

Definition orel (E : rgba16 -> rgba16 -> Prop) (c c' : option rgba16) : Prop :=
  forall p, c = Some p -> exists q, c' = Some q /\ E p q.

Lemma orel_refl (E : rgba16 -> rgba16 -> Prop) c : (forall p, E p p) -> orel E c c.
Proof. intros H p ->. exists p. auto. Qed.

Lemma orel_of_match (E : rgba16 -> rgba16 -> Prop) c c' :
  match c, c' with Some p, Some q => E p q | _, _ => False end -> orel E c c'.
Proof. destruct c as [p|], c' as [q|]; try tauto. intros H p0 E0. injection E0 as <-. eauto. Qed.

Definition pic_rel (E : rgba16 -> rgba16 -> Prop) (p q : picture) : Prop :=
  pic_w q = pic_w p /\ pic_h q = pic_h p /\ Forall2 (Forall2 E) (pic_px p) (pic_px q).

Theorem orel_gsem E w h il pc pc' (B B' : nat) (pxs pxs' : list (list Z)) pic :
  (0 < B)%nat -> (0 < B')%nat ->
  Forall (fun px => length px = B) pxs -> Forall (fun px => length px = B') pxs' ->
  Forall2 (fun px px' => orel E (pc (sbits_of_bytes px)) (pc' (sbits_of_bytes px'))) pxs pxs' ->
  gsem w h (8 * Z.of_nat B) il pc (concat pxs) = Some pic ->
  exists pic', gsem w h (8 * Z.of_nat B') il pc' (concat pxs') = Some pic' /\ pic_rel E pic pic'.
Proof.
  intros HB HB' Hu Hu' HF Hsem.
  destruct (rel_gsem (orel E) w h il pc pc' B B' pxs pxs' HB HB' Hu Hu' HF) as (orows & E1 & E2 & HR).
  rewrite E2. rewrite E1 in Hsem. destruct orows as [rows|]; [|discriminate]. cbn [option_map finish] in *.
  specialize (HR rows eq_refl). rewrite Forall_forall in HR.
  destruct (all_some (map all_some (map (map fst) rows))) as [px|] eqn:Epx; [|discriminate]. injection Hsem as <-.
  (* the rows, each decoded on both sides, are again a list of pairs of optional values *)
  destruct (all_some_rel (Forall2 E) (map (fun row => (all_some (map fst row), all_some (map snd row))) rows)) with (l := px)
    as (px' & E' & F').
  - apply Forall_forall. intros z Hz. apply in_map_iff in Hz. destruct Hz as (row & <- & Hrow). apply all_some_rel, HR, Hrow.
  - rewrite <- Epx, !map_map. reflexivity.
  - rewrite map_map in E'. cbn [snd] in E'. rewrite map_map, E'. eexists. split; [reflexivity|]. repeat split. exact F'.
Qed.

Theorem sem_pixels_rel E (img img' : image) c' (B B' : nat) (pxs' : list (list Z)) pic :
  let c := ctype (hdr img) in let d := depth (hdr img) in
  hdr img' = with_ctype (hdr img) c' -> data img' = concat pxs' ->
  (0 < B)%nat -> (0 < B')%nat ->
  d * channels_per_pixel c = 8 * Z.of_nat B -> d * channels_per_pixel c' = 8 * Z.of_nat B' ->
  depth_legal (spec_color_of c') d = true -> wf_ctype c' d ->
  Forall2 (fun px px' => bytes_ok px' /\ length px' = B' /\
             orel E (pxcol (spec_color_of c) d px) (pxcol (spec_color_of c') d px'))
          (chunks_exact B (data img)) pxs' ->
  sem img = Some pic -> (exists pic', sem img' = Some pic' /\ pic_rel E pic pic') /\ wf img'.
Proof.
  intros c d Hh Hdata HB HB' Hbits Hbits' Hlegal Hwf' HF Hsem.
  assert (Hpxs' : Forall (fun px' => bytes_ok px' /\ length px' = B') pxs').
  { refine (Forall2_Forall_r _ _ _ _ _ HF (chunks_exact_lengths B (data img)) _). intros px px' (Hb & Hl & _) _. auto. }
  apply Forall_and_inv in Hpxs'. destruct Hpxs' as [Hok' Hu'].
  unfold wf, sem in *. rewrite Hh, Hdata. cbn [width height interlaced depth ctype with_ctype]. fold c d in Hsem |- *.
  split; [|split; [apply Forall_concat, Hok'|exact Hwf']].
  rewrite spec_sem_gsem in Hsem. rewrite spec_sem_gsem, Hlegal. cbn [negb].
  destruct (negb (depth_legal (spec_color_of c) d)); [discriminate|].
  rewrite spec_channels_of in *. rewrite Hbits in Hsem. rewrite Hbits'.
  destruct (gsem_some_length _ _ _ _ B _ _ HB Hsem) as [k Hlen].
  destruct (chunks_exact_spec B (data img) k HB Hlen) as (Hc & Hu & _).
  rewrite <- Hc in Hsem.
  refine (orel_gsem E _ _ _ _ _ B B' _ _ pic HB HB' Hu Hu' _ Hsem).
  refine (Forall2_impl _ _ _ _ _ HF). intros px px' (_ & _ & Hr). exact Hr.
Qed.

Lemma pic_rel_eq p q : pic_rel eq p q -> q = p.
Proof.
  destruct p, q. unfold pic_rel. cbn. intros (-> & -> & F). f_equal. symmetry.
  apply (Forall2_eq (Forall2 eq)); [|exact F]. intros a b. apply Forall2_eq. auto.
Qed.

Lemma sem_exact img' pic : (exists pic', sem img' = Some pic' /\ pic_rel eq pic pic') /\ wf img' -> sem img' = Some pic /\ wf img'.
Proof. intros [(pic' & E & R) W]. apply pic_rel_eq in R. subst pic'. auto. Qed.

Lemma pxcol8 c px : bytes_ok px -> pxcol c 8 px = color_of_samples c 8 px.
Proof. intros H. unfold pxcol, pixel_color. change (Z.to_nat 8) with 8%nat. rewrite samples8 by exact H. reflexivity. Qed.

Lemma sem_some_legal img pic : sem img = Some pic -> depth_legal (spec_color_of (ctype (hdr img))) (depth (hdr img)) = true.
Proof. unfold sem, spec_sem. destruct (depth_legal _ _); [reflexivity|discriminate]. Qed.

Lemma legal_8_16 c d : depth_legal (spec_color_of c) d = true -> (is_rgb c = true \/ has_alpha c = true) -> d = 8 \/ d = 16.
Proof. destruct c; cbn; intros H [F|F]; try discriminate; apply orb_true_iff in H; destruct H as [H|H]; apply Z.eqb_eq in H; auto. Qed.

Definition bpc (d : Z) : nat := Z.to_nat (if d =? 16 then 2 else 1).

Lemma bpc_bits d : d = 8 \/ d = 16 -> d = 8 * Z.of_nat (bpc d) /\ (0 < bpc d)%nat.
Proof. intros [-> | ->]; [change (bpc 8) with 1%nat|change (bpc 16) with 2%nat]; lia. Qed.

(* the common part of the reductions of an image of depth 8 or 16, pixel by pixel, to colour type c':
   what remains to be shown is the statement about one pixel *)
Lemma channel_reduction E img c' h' (g : list Z -> list Z) pic :
  let c := ctype (hdr img) in let d := depth (hdr img) in
  let pixels := chunks_exact (Z.to_nat (channels_per_pixel c) * bpc d) (data img) in
  wf img -> sem img = Some pic -> d = 8 \/ d = 16 ->
  h' = with_ctype (hdr img) c' -> is_indexed c' = false -> wf_ctype c' d ->
  (forall px, In px pixels -> bytes_ok px -> length px = (Z.to_nat (channels_per_pixel c) * bpc d)%nat ->
     bytes_ok (g px) /\ length (g px) = (Z.to_nat (channels_per_pixel c') * bpc d)%nat /\
     orel E (pxcol (spec_color_of c) d px) (pxcol (spec_color_of c') d (g px))) ->
  (exists pic', sem {| hdr := h'; data := flat_map g pixels |} = Some pic' /\ pic_rel E pic pic') /\
  wf {| hdr := h'; data := flat_map g pixels |}.
Proof.
  intros c d pixels [Hok _] Hsem Hd Hh Hni Hwf' Hpx. destruct (bpc_bits d Hd) as [Hbd Hb].
  assert (Hbits : forall x, d * channels_per_pixel x = 8 * Z.of_nat (Z.to_nat (channels_per_pixel x) * bpc d)).
  { intros x. pose proof (channels_pos x). rewrite Nat2Z.inj_mul, Z2Nat.id by lia. lia. }
  assert (Hpos : forall x, (0 < Z.to_nat (channels_per_pixel x) * bpc d)%nat).
  { intros x. pose proof (channels_pos x). apply Nat.mul_pos_pos; lia. }
  apply (sem_pixels_rel E img _ c' (Z.to_nat (channels_per_pixel c) * bpc d) (Z.to_nat (channels_per_pixel c') * bpc d) (map g pixels) pic);
    auto.
  - apply flat_map_concat_map.
  - fold d. destruct c'; try discriminate; destruct Hd as [-> | ->]; reflexivity.
  - apply Forall2_map_in. intros px Hin. apply (Hpx px Hin); [exact (bytes_ok_chunk _ _ _ Hok Hin)|].
    pose proof (chunks_exact_lengths (Z.to_nat (channels_per_pixel c) * bpc d) (data img)) as L. rewrite Forall_forall in L. exact (L px Hin).
Qed.

(* big-endian value of the bytes of one sample *)
Definition be (s : list Z) : Z := fold_left (fun a b => a * 256 + b) s 0.

Lemma sval_be s : bytes_ok s -> sval (sbits_of_bytes s) = be s.
Proof.
  unfold be. induction s as [|b s IH] using rev_ind; intros Hok; [reflexivity|].
  apply bytes_ok_app in Hok. destruct Hok as [Hs Hb]. apply bytes_ok_cons in Hb.
  unfold sbits_of_bytes in *. rewrite fold_left_app, flat_map_app, sval_app, IH by exact Hs. cbn [fold_left flat_map]. rewrite app_nil_r, sbits_of_byte_length, sval_sbits_of_byte by apply Hb. reflexivity.
Qed.

Lemma pxcol_samples c d (bd : nat) ss : d = 8 * Z.of_nat bd -> (0 < bd)%nat ->
  Forall (fun s => length s = bd) ss -> Forall bytes_ok ss ->
  pxcol c d (concat ss) = color_of_samples c d (map be ss).
Proof.
  intros Hd Hbd Hl Hok. unfold pxcol, pixel_color. f_equal.
  rewrite groups_is_chunks_exact, sbits_of_bytes_concat, chunks_exact_concat, map_map; [|lia|].
  - apply map_ext_in. intros s Hs. apply sval_be. rewrite Forall_forall in Hok. exact (Hok s Hs).
  - apply Forall_forall. intros x Hx. apply in_map_iff in Hx. destruct Hx as (s & <- & Hs).
    rewrite Forall_forall in Hl. rewrite sbits_of_bytes_length, (Hl s Hs). lia.
Qed.

Lemma pixel_samples (n bd : nat) px : (0 < bd)%nat -> bytes_ok px -> length px = (n * bd)%nat ->
  exists ss, px = concat ss /\ length ss = n /\ Forall (fun s => length s = bd) ss /\ Forall bytes_ok ss.
Proof.
  intros Hbd Hok Hl. destruct (chunks_exact_spec bd px n Hbd Hl) as (Hc & Hu & Hn).
  exists (chunks_exact bd px). repeat split; auto. apply Forall_forall. intros s Hs. exact (bytes_ok_chunk _ _ _ Hok Hs).
Qed.

(* what the byte tests of the alpha reductions say about a sample; the colour key of a byte t repeated *)
Definition key_of (d t : Z) : Z := if d =? 16 then t * 256 + t else t.

Lemma sample_facts d s : d = 8 \/ d = 16 -> length s = bpc d -> bytes_ok s ->
  0 <= be s < 2 ^ d /\ (all_eq 0 s = true -> be s = 0) /\
  (existsb (fun b => negb (b =? 255)) s = false -> be s = 2 ^ d - 1) /\
  forall t, 0 <= t < 256 -> all_eq t s = (key_of d t =? be s).
Proof.
  intros [-> | ->] Hl Hok; [destruct s as [|a [|? ?]]|destruct s as [|a [|b [|? ?]]]]; try discriminate Hl;
    repeat (apply bytes_ok_cons in Hok; destruct Hok as [? Hok]); unfold byte_ok in *; cbn.
  all: repeat split; intros; lia.
Qed.

Lemma be_repeat d t : d = 8 \/ d = 16 -> be (repeat t (bpc d)) = key_of d t.
Proof. intros [-> | ->]; reflexivity. Qed.

(* a pixel with an alpha channel: its colour samples cs, of the bytes before the alpha sample a *)
Lemma alpha_pixel_view c d px : d = 8 \/ d = 16 -> bytes_ok px ->
  length px = (Z.to_nat (channels_per_pixel c) * bpc d)%nat ->
  exists cs a,
    firstn ((Z.to_nat (channels_per_pixel c) - 1) * bpc d) px = concat cs /\
    skipn ((Z.to_nat (channels_per_pixel c) - 1) * bpc d) px = a /\
    length cs = (Z.to_nat (channels_per_pixel c) - 1)%nat /\
    Forall (fun s => length s = bpc d) cs /\ Forall bytes_ok cs /\ length a = bpc d /\ bytes_ok a /\
    forall c', pxcol c' d px = color_of_samples c' d (map be cs ++ [be a]).
Proof.
  intros Hd Hok Hlen. destruct (bpc_bits d Hd) as [Hbits Hbd]. pose proof (channels_pos c) as Hch.
  destruct (pixel_samples _ _ px Hbd Hok Hlen) as (ss & -> & Hn & Hl & Hoks).
  set (k := (Z.to_nat (channels_per_pixel c) - 1)%nat).
  destruct (cut_concat_uniform (bpc d) ss Hl k) as [-> ->].
  pose proof (Forall_skipn _ k _ Hl) as Hla. pose proof (Forall_skipn _ k _ Hoks) as Hoka.
  destruct (skipn k ss) as [|a [|? ?]] eqn:Es; pose proof (f_equal (@length _) Es) as El; rewrite skipn_length in El; cbn in El; try lia.
  exists (firstn k ss), a. cbn [concat]. rewrite app_nil_r.
  split; [reflexivity|]. split; [reflexivity|]. split; [rewrite firstn_length; lia|].
  split; [apply Forall_firstn, Hl|]. split; [apply Forall_firstn, Hoks|].
  split; [exact (Forall_inv Hla)|]. split; [exact (Forall_inv Hoka)|].
  intros c'. rewrite (pxcol_samples c' d (bpc d) ss) by auto.
  rewrite <- (firstn_skipn k ss) at 1. rewrite Es, map_app. reflexivity.
Qed.

Definition gray_ctype (c : color_type) : color_type :=
  match c with
  | RGB key => Gray (match key with Some (r, g, b) => if (r =? g) && (g =? b) then Some r else None | None => None end)
  | _ => GrayAlpha
  end.

Lemma wf_gray_ctype c d : wf_ctype c d -> wf_ctype (gray_ctype c) d.
Proof.
  destruct c as [|[[[r g] b]|]| | |]; cbn; auto. intros (Hr & Hg & Hb). destruct ((r =? g) && (g =? b)); cbn; auto.
Qed.

Lemma pixel_rgb_gray c d px : d = 8 \/ d = 16 -> is_rgb c = true -> wf_ctype c d -> bytes_ok px ->
  length px = (Z.to_nat (channels_per_pixel c) * bpc d)%nat ->
  list_Z_eqb (firstn (bpc d) px) (firstn (bpc d) (skipn (bpc d) px))
  && list_Z_eqb (firstn (bpc d) (skipn (bpc d) px)) (firstn (bpc d) (skipn (2 * bpc d) px)) = true ->
  pxcol (spec_color_of (gray_ctype c)) d (skipn (2 * bpc d) px) = pxcol (spec_color_of c) d px.
Proof.
  intros Hd Hrgb Hwf Hok Hl Hg. destruct (bpc_bits d Hd) as [Hbits Hbd].
  destruct (pixel_samples _ _ px Hbd Hok Hl) as (ss & -> & Hn & Hls & Hoks).
  rewrite (fun n => proj2 (cut_concat_uniform (bpc d) ss Hls n)) in *.
  rewrite !(pxcol_samples _ d (bpc d)) by (auto using Forall_skipn).
  apply andb_true_iff in Hg. destruct Hg as [G1 G2]. unfold list_Z_eqb in *. apply list_eqb_Z_spec in G1, G2.
  (* the first three samples r, g, b are equal as lists of bytes *)
  assert (E3 : exists v rest, ss = v :: v :: v :: rest /\ length rest = (Z.to_nat (channels_per_pixel c) - 3)%nat /\ bytes_ok v /\ length v = bpc d).
  { rewrite <- (Nat.mul_1_l (bpc d)) in G1, G2.
    rewrite !(fun l H => proj2 (cut_concat_uniform (bpc d) l H 1)) in G1, G2 by exact Hls.
    rewrite !(fun l H => proj1 (cut_concat_uniform (bpc d) l H 1)) in G1, G2 by auto using Forall_skipn.
    destruct ss as [|r [|g [|b rest]]]; try (destruct c; discriminate).
    cbn [firstn skipn concat] in G1, G2. rewrite !app_nil_r in G1, G2. subst g b.
    exists r, rest. split; [reflexivity|]. cbn [length] in Hn. split; [lia|]. split; [exact (Forall_inv Hoks)|exact (Forall_inv Hls)]. }
  destruct E3 as (v & rest & -> & Hr & Hv & Hlv). cbn [skipn map].
  destruct (sample_facts d v Hd Hlv Hv) as (Hrange & _).
  destruct c as [| key | | |]; try discriminate; cbn in Hr.
  - destruct rest; [|discriminate]. symmetry. apply (pixel_rgb_to_gray key d (be v)); auto. intros kr kg kb ->. exact Hwf.
  - destruct rest as [|a [|? ?]]; try discriminate. symmetry. apply pixel_rgba_to_gray_alpha.
Qed.

Theorem reduced_rgb_to_grayscale_sem img img' pic : wf img ->
  reduced_rgb_to_grayscale img = Some img' -> sem img = Some pic -> sem img' = Some pic /\ wf img'.
Proof.
  intros Hwf Hred Hsem. unfold reduced_rgb_to_grayscale, channels in Hred.
  change (Z.to_nat (bytes_per_channel img)) with (bpc (depth (hdr img))) in Hred.
  destruct (is_rgb (ctype (hdr img))) eqn:Ergb; cbn [negb] in Hred; [|discriminate].
  destruct (forallb _ _) eqn:Eall; cbn [negb] in Hred; [|discriminate]. rewrite forallb_forall in Eall.
  injection Hred as <-. apply sem_exact.
  pose proof (legal_8_16 _ _ (sem_some_legal _ _ Hsem) (or_introl Ergb)) as Hd.
  apply (channel_reduction eq img (gray_ctype (ctype (hdr img))) _ _ pic); auto.
  - destruct (ctype (hdr img)); try discriminate; reflexivity.
  - apply wf_gray_ctype, Hwf.
  - intros px Hin Hok Hlen. split; [apply bytes_ok_skipn, Hok|]. split.
    + rewrite skipn_length, Hlen. destruct (ctype (hdr img)); try discriminate; cbn [channels_per_pixel gray_ctype]; lia.
    + rewrite pixel_rgb_gray; auto; [apply orel_refl; reflexivity|apply Hwf].
Qed.

Lemma all_eq_spec v l : all_eq v l = true -> forall x, In x l -> x = v.
Proof. unfold all_eq. rewrite forallb_forall. intros H x Hx. apply Z.eqb_eq. apply H. exact Hx. Qed.

Definition aeq (p q : rgba16) : Prop := rgba_alpha_equivb p q = true.


Lemma first_unused_spec used : forall i v, first_unused used i = Some v -> i <= v < i + lenZ used /\ nth (Z.to_nat (v - i)) used true = false.
Proof.
  induction used as [|u t IH]; intros i v H; cbn [first_unused] in H; [discriminate|]. unfold lenZ in *. cbn [length].
  destruct u.
  - destruct (IH _ _ H) as [Hr Hn]. split; [lia|]. replace (Z.to_nat (v - i)) with (S (Z.to_nat (v - (i + 1)))) by lia. exact Hn.
  - injection H as <-. split; [lia|]. rewrite Z.sub_diag. reflexivity.
Qed.

Lemma cos_gray_nomatch d k v : key_match d k v = false ->
  color_of_samples (SGray (Some k)) d [v] = color_of_samples (SGray None) d [v].
Proof. intros H. cbn [color_of_samples]. rewrite H. reflexivity. Qed.

Lemma cos_rgb_nomatch d kr kg kb r g b : key_match d kr r && key_match d kg g && key_match d kb b = false ->
  color_of_samples (SRGB (Some (kr, kg, kb))) d [r; g; b] = color_of_samples (SRGB None) d [r; g; b].
Proof. intros H. cbn [color_of_samples]. rewrite H. reflexivity. Qed.

(* the colour type after the alpha channel is removed, with colour key k: a gray level, or that level in the three channels *)
Definition key_ctype (c : color_type) (k : option Z) : color_type :=
  match c with GrayAlpha => Gray k | _ => RGB (option_map (fun v => (v, v, v)) k) end.

Lemma key_ctype_channels c k : has_alpha c = true ->
  is_indexed (key_ctype c k) = false /\
  Z.to_nat (channels_per_pixel (key_ctype c k)) = (Z.to_nat (channels_per_pixel c) - 1)%nat.
Proof. destruct c; try discriminate; intros _; split; reflexivity. Qed.

Lemma key_match_self d k : 0 <= k < 2 ^ d -> key_match d k k = true.
Proof. intros H. unfold key_match. rewrite Z.mod_small by exact H. apply Z.eqb_refl. Qed.

Lemma alpha_scan_spec oa colored pixels : forall ht used ht' used', length used = 256%nat ->
  alpha_scan oa colored pixels ht used = SRok ht' used' ->
  length used' = 256%nat /\ (forall k, nth k used false = true -> nth k used' false = true) /\
  (ht = true -> ht' = true) /\ (oa = false -> ht' = ht) /\
  forall px, In px pixels ->
    (oa = true /\ all_eq 0 (skipn colored px) = true /\ ht' = true) \/
    (existsb (fun b => negb (b =? 255)) (skipn colored px) = false /\
     (oa = true -> all_eq 0 (skipn colored px) = false /\
        forall t, t < 256 -> (0 < colored)%nat -> px <> [] -> all_eq t (firstn colored px) = true ->
          nth (Z.to_nat t) used' false = true)).
Proof.
  induction pixels as [|px t IH]; intros ht used ht' used' Hlen H; cbn [alpha_scan] in H.
  - injection H as <- <-. repeat split; auto; intros ? [].
  - destruct (oa && all_eq 0 (skipn colored px)) eqn:Ez.
    + apply andb_true_iff in Ez. destruct Ez as [-> Ez].
      destruct (IH _ _ _ _ Hlen H) as (L & M & T & F & P). repeat split; auto; try discriminate.
      intros q [<-|Hq]; [left; auto|apply P; exact Hq].
    + destruct (existsb (fun b => negb (b =? 255)) (skipn colored px)) eqn:Ex; [discriminate|].
      (* the table after this pixel *)
      set (used1 := match px with
                    | p0 :: _ => if oa && all_eq p0 (firstn colored px) then set_nth (Z.to_nat p0) true used else used
                    | [] => used end).
      assert (H1 : alpha_scan oa colored t ht used1 = SRok ht' used').
      { unfold used1. destruct px as [|p0 r]; [exact H|]. destruct (oa && all_eq p0 _); exact H. }
      assert (L1 : length used1 = 256%nat).
      { unfold used1. destruct px as [|p0 r]; [exact Hlen|]. destruct (oa && all_eq p0 _); rewrite ?set_nth_length; exact Hlen. }
      destruct (IH _ _ _ _ L1 H1) as (L & M & T & F & P). repeat split; auto.
      * intros k Hk. apply M. unfold used1. destruct px as [|p0 r]; [exact Hk|]. destruct (oa && all_eq p0 _); [apply nth_set_nth_idem|]; exact Hk.
      * intros q [<-|Hq]; [right|apply P; exact Hq]. split; [exact Ex|]. intros ->. split; [exact Ez|].
        intros v Hv Hc Hne Hall. apply M. unfold used1.
        destruct px as [|p0 r]; [congruence|]. destruct colored as [|k]; [lia|].
        assert (p0 = v) by (apply (all_eq_spec _ _ Hall); left; reflexivity).
        subst p0. rewrite Hall. apply nth_set_nth_same. lia.
Qed.

Lemma alpha_key_spec (c : color_type) (ht : bool) used trns : length used = 256%nat ->
  (if ht then
     match match c with GrayAlpha => find (fun v => negb (nth (Z.to_nat v) used true)) [0; 255; 85; 170] | _ => None end with
     | Some v => Some (Some v)
     | None => match first_unused used 0 with Some v => Some (Some v) | None => None end
     end
   else Some None) = Some trns ->
  match trns with
  | Some t => ht = true /\ 0 <= t < 256 /\ nth (Z.to_nat t) used false = false
  | None => ht = false
  end.
Proof.
  intros Hul H. destruct ht; [|injection H as <-; reflexivity].
  assert (G : forall t, 0 <= t < 256 -> nth (Z.to_nat t) used true = false -> nth (Z.to_nat t) used false = false).
  { intros t Ht <-. apply nth_indep. lia. }
  destruct (match c with GrayAlpha => _ | _ => None end) as [v|] eqn:Ef.
  - injection H as <-. destruct c; try discriminate. apply find_some in Ef. destruct Ef as [Hin Hn].
    apply negb_true_iff in Hn. assert (0 <= v < 256) by (cbn in Hin; lia). auto.
  - destruct (first_unused used 0) as [v|] eqn:Efu; [|discriminate]. injection H as <-.
    destruct (first_unused_spec _ _ _ Efu) as [Hr Hn]. rewrite Z.sub_0_r in Hn. unfold lenZ in Hr. rewrite Hul in Hr.
    split; [reflexivity|]. split; [lia|]. apply G; [lia|exact Hn].
Qed.

Lemma colored_bytes n b : (n * b - b = (n - 1) * b)%nat.
Proof. rewrite Nat.mul_sub_distr_r, Nat.mul_1_l. reflexivity. Qed.

Lemma key_of_range d t : d = 8 \/ d = 16 -> 0 <= t < 256 -> 0 <= key_of d t < 2 ^ d.
Proof. intros [-> | ->] Ht; cbn; lia. Qed.

Lemma key_match_key d t v : d = 8 \/ d = 16 -> 0 <= t < 256 -> key_match d (key_of d t) v = (key_of d t =? v).
Proof. intros Hd Ht. unfold key_match. rewrite Z.mod_small by (apply key_of_range; assumption). reflexivity. Qed.

Lemma pixel_drop_alpha c d px : d = 8 \/ d = 16 -> has_alpha c = true -> bytes_ok px ->
  length px = (Z.to_nat (channels_per_pixel c) * bpc d)%nat ->
  existsb (fun b => negb (b =? 255)) (skipn ((Z.to_nat (channels_per_pixel c) - 1) * bpc d) px) = false ->
  pxcol (spec_color_of (key_ctype c None)) d (firstn ((Z.to_nat (channels_per_pixel c) - 1) * bpc d) px) = pxcol (spec_color_of c) d px.
Proof.
  intros Hd Ha Hok Hl Hex. destruct (bpc_bits d Hd) as [Hbits Hbd].
  destruct (alpha_pixel_view c d px Hd Hok Hl) as (cs & a & -> & Ea & Hn & Hlc & Hokc & Hla & Hoka & ->).
  rewrite Ea in Hex. rewrite (pxcol_samples _ d (bpc d) cs) by auto.
  destruct (sample_facts d a Hd Hla Hoka) as (_ & _ & H255 & _). rewrite (H255 Hex).
  destruct c; try discriminate; cbn in Hn.
  - destruct cs as [|v [|? ?]]; try discriminate Hn. symmetry. apply pixel_drop_alpha_gray, Hd.
  - destruct cs as [|r [|g [|b [|? ?]]]]; try discriminate Hn. symmetry. apply pixel_drop_alpha_rgb, Hd.
Qed.

Lemma pixel_key_opaque c d px t : d = 8 \/ d = 16 -> has_alpha c = true -> bytes_ok px ->
  length px = (Z.to_nat (channels_per_pixel c) * bpc d)%nat -> 0 <= t < 256 ->
  existsb (fun b => negb (b =? 255)) (skipn ((Z.to_nat (channels_per_pixel c) - 1) * bpc d) px) = false ->
  all_eq t (firstn ((Z.to_nat (channels_per_pixel c) - 1) * bpc d) px) = false ->
  pxcol (spec_color_of (key_ctype c (Some (key_of d t)))) d (firstn ((Z.to_nat (channels_per_pixel c) - 1) * bpc d) px) = pxcol (spec_color_of c) d px.
Proof.
  intros Hd Ha Hok Hl Ht Hex Hne. rewrite <- (pixel_drop_alpha c d px Hd Ha Hok Hl Hex). destruct (bpc_bits d Hd) as [Hbits Hbd].
  destruct (alpha_pixel_view c d px Hd Hok Hl) as (cs & a & E & _ & Hn & Hlc & Hokc & _). rewrite E in *.
  rewrite !(pxcol_samples _ d (bpc d) cs) by auto.
  assert (Hs : forall s, In s cs -> all_eq t s = (key_of d t =? be s)).
  { intros s Hs. rewrite Forall_forall in Hlc, Hokc. apply (sample_facts d s Hd (Hlc s Hs) (Hokc s Hs)), Ht. }
  unfold all_eq in Hne. destruct c; try discriminate; cbn in Hn.
  - destruct cs as [|v [|? ?]]; try discriminate Hn. cbn [concat] in Hne. rewrite app_nil_r in Hne.
    cbn [key_ctype option_map spec_color_of map].
    apply cos_gray_nomatch. rewrite key_match_key by assumption. rewrite <- Hs by (left; reflexivity). exact Hne.
  - destruct cs as [|r [|g [|b [|? ?]]]]; try discriminate Hn. cbn [concat] in Hne. rewrite app_nil_r, !forallb_app in Hne.
    cbn [key_ctype option_map spec_color_of map].
    apply cos_rgb_nomatch. rewrite !key_match_key by assumption.
    rewrite <- !Hs by (cbn; auto). rewrite <- andb_assoc. exact Hne.
Qed.

Lemma pxcol_repeat c d t k : d = 8 \/ d = 16 -> 0 <= t < 256 ->
  pxcol c d (repeat t (k * bpc d)) = color_of_samples c d (repeat (key_of d t) k).
Proof.
  intros Hd Ht. destruct (bpc_bits d Hd) as [Hbits Hbd].
  rewrite <- concat_repeat, (pxcol_samples c d (bpc d)); auto.
  - f_equal. induction k as [|k IH]; cbn [repeat map]; [reflexivity|]. rewrite IH, be_repeat by exact Hd. reflexivity.
  - apply Forall_forall. intros s Hs. apply repeat_spec in Hs. subst s. apply repeat_length.
  - apply Forall_forall. intros s Hs. apply repeat_spec in Hs. subst s. apply bytes_ok_repeat, Ht.
Qed.

Lemma pixel_key_transparent c d px t : d = 8 \/ d = 16 -> has_alpha c = true -> bytes_ok px ->
  length px = (Z.to_nat (channels_per_pixel c) * bpc d)%nat -> 0 <= t < 256 ->
  all_eq 0 (skipn ((Z.to_nat (channels_per_pixel c) - 1) * bpc d) px) = true ->
  orel aeq (pxcol (spec_color_of c) d px)
           (pxcol (spec_color_of (key_ctype c (Some (key_of d t)))) d (repeat t ((Z.to_nat (channels_per_pixel c) - 1) * bpc d))).
Proof.
  intros Hd Ha Hok Hl Ht Hz. destruct (bpc_bits d Hd) as [Hbits Hbd]. pose proof (key_of_range d t Hd Ht) as Hk.
  destruct (alpha_pixel_view c d px Hd Hok Hl) as (cs & a & _ & Ea & Hn & _ & _ & Hla & Hoka & ->).
  rewrite Ea in Hz. destruct (sample_facts d a Hd Hla Hoka) as (_ & H0 & _). rewrite (H0 Hz).
  rewrite pxcol_repeat, <- Hn by assumption.
  apply orel_of_match. destruct c; try discriminate; cbn in Hn.
  - destruct cs as [|v [|? ?]]; try discriminate Hn. apply (pixel_transparent_to_key_gray d (be v) (key_of d t)); lia.
  - destruct cs as [|r [|g [|b [|? ?]]]]; try discriminate Hn. cbn [length repeat map app key_ctype option_map spec_color_of color_of_samples].
    fold (key_of d t). rewrite !key_match_self by exact Hk. cbn [andb]. unfold aeq, scale16. cbn. reflexivity.
Qed.

(* removing the alpha channel: exact when nothing is transparent; with alpha optimisation, fully transparent
   pixels take a colour that no opaque pixel has, which becomes the colour key *)
Theorem reduced_alpha_channel_rel img oa img' pic : wf img ->
  reduced_alpha_channel img oa = Some img' -> sem img = Some pic ->
  (exists pic', sem img' = Some pic' /\ pic_rel (if oa then aeq else eq) pic pic') /\ wf img'.
Proof.
  intros Hwf Hred Hsem. unfold reduced_alpha_channel, channels in Hred.
  change (Z.to_nat (bytes_per_channel img)) with (bpc (depth (hdr img))) in Hred.
  rewrite colored_bytes in Hred.
  destruct (has_alpha (ctype (hdr img))) eqn:Ea; cbn [negb] in Hred; [|discriminate].
  pose proof (legal_8_16 _ _ (sem_some_legal _ _ Hsem) (or_intror Ea)) as Hd.
  destruct (alpha_scan oa _ _ false (repeat false 256)) as [|ht used] eqn:Escan; [discriminate|].
  destruct (alpha_scan_spec _ _ _ _ _ _ _ (repeat_length _ _) Escan) as (Hul & _ & _ & Hht & Hpx).
  match type of Hred with (match ?tp with _ => _ end) = _ => destruct tp as [trns|] eqn:Etp; [|discriminate] end.
  injection Hred as <-. apply (alpha_key_spec _ _ _ _ Hul) in Etp.
  destruct trns as [t|].
  - destruct Etp as (-> & Ht & Hun). destruct oa; [|discriminate Hht; reflexivity].
    apply (channel_reduction aeq img (key_ctype (ctype (hdr img)) (Some (key_of (depth (hdr img)) t))) _ _ pic); auto.
    + apply key_ctype_channels, Ea.
    + pose proof (key_of_range _ t Hd Ht). destruct (ctype (hdr img)); cbn; auto.
    + intros px Hin Hok Hlen. rewrite (proj2 (key_ctype_channels _ _ Ea)). destruct (Hpx px Hin) as [(_ & Hz & _)|[Hex Hop]].
      * rewrite Hz. split; [apply bytes_ok_repeat, Ht|]. split; [apply repeat_length|apply pixel_key_transparent; auto].
      * destruct (Hop eq_refl) as [Hnz Hmark]. rewrite Hnz. split; [apply bytes_ok_firstn, Hok|].
        split; [apply firstn_length_le; rewrite Hlen; apply Nat.mul_le_mono_r; lia|].
        rewrite pixel_key_opaque; auto; [apply orel_refl, rgba_alpha_equivb_refl|].
        (* an opaque pixel of the colour t would have marked t as used *)
        destruct (all_eq t (firstn _ px)) eqn:Et; [|reflexivity]. rewrite Hmark in Hun; auto; try lia.
        -- destruct (ctype (hdr img)); try discriminate; destruct Hd as [Hd|Hd]; rewrite Hd; cbn; lia.
        -- intros ->. destruct (ctype (hdr img)); try discriminate; destruct Hd as [Hd|Hd]; rewrite Hd in Hlen; cbn in Hlen; lia.
  - subst ht.
    apply (channel_reduction _ img (key_ctype (ctype (hdr img)) None) _ _ pic); auto.
    + apply key_ctype_channels, Ea.
    + destruct (ctype (hdr img)); exact I.
    + intros px Hin Hok Hlen. rewrite (proj2 (key_ctype_channels _ _ Ea)). split; [apply bytes_ok_firstn, Hok|].
      split; [apply firstn_length_le; rewrite Hlen; apply Nat.mul_le_mono_r; lia|].
      destruct (Hpx px Hin) as [(_ & _ & ?)|[Hex _]]; [discriminate|].
      rewrite (pixel_drop_alpha _ _ _ Hd Ea Hok Hlen Hex). apply orel_refl. intros p. destruct oa; [apply rgba_alpha_equivb_refl|reflexivity].
Qed.

Theorem reduced_alpha_channel_sem img img' pic : wf img ->
  reduced_alpha_channel img false = Some img' -> sem img = Some pic -> sem img' = Some pic /\ wf img'.
Proof. intros Hwf Hred Hsem. apply sem_exact. exact (reduced_alpha_channel_rel img false img' pic Hwf Hred Hsem). Qed.

Lemma index_of_spec {A} (eqb : A -> A -> bool) (Heq : forall a x, eqb a x = true -> a = x) (x : A) l :
  forall i j, index_of eqb x l i = Some j -> (i <= j)%nat /\ nth_error l (j - i) = Some x.
Proof.
  induction l as [|a t IH]; intros i j H; cbn [index_of] in H; [discriminate|].
  destruct (eqb a x) eqn:E.
  - injection H as <-. apply Heq in E. subst a. rewrite Nat.sub_diag. split; [lia|reflexivity].
  - destruct (IH _ _ H) as [Hle Hn]. split; [lia|]. replace (j - i)%nat with (S (j - S i)) by lia. exact Hn.
Qed.

Lemma insert_full_spec {A} (eqb : A -> A -> bool) (Heq : forall a x, eqb a x = true -> a = x) (x : A) items n idx items' n' : n = length items ->
  insert_full eqb x (items, n) = (idx, (items', n')) ->
  n' = length items' /\ (exists more, rev items' = rev items ++ more /\ (forall y, In y more -> y = x)) /\
  nth_error (rev items') idx = Some x /\ (idx < n')%nat /\ (n' = n \/ n' = S n /\ idx = n).
Proof.
  intros Hn H. unfold insert_full in H. destruct (index_of eqb x items 0) as [j|] eqn:Ei.
  - injection H as <- <- <-. destruct (index_of_spec _ Heq _ _ _ _ Ei) as [_ Hnth]. rewrite Nat.sub_0_r in Hnth.
    assert (Hj : (j < length items)%nat) by (apply nth_error_Some; congruence).
    split; [exact Hn|]. split; [exists []; rewrite app_nil_r; split; [reflexivity|intros ? []]|].
    split; [rewrite Hn, nth_error_rev by lia; exact Hnth|]. lia.
  - injection H as <- <- <-. split; [cbn; lia|]. split; [exists [x]; split; [reflexivity|intros y [<-|[]]; reflexivity]|].
    split; [cbn [rev]; rewrite nth_error_app2 by (rewrite rev_length; lia); rewrite rev_length, Hn, Nat.sub_diag; reflexivity|]. lia.
Qed.

Lemma build_palette_spec pixels : forall set rev_data pmap raw,
  snd set = length (fst set) -> (snd set <= 256)%nat ->
  build_palette list_Z_eqb pixels set rev_data = Some (pmap, raw) ->
  exists idxs more, raw = rev rev_data ++ idxs /\ pmap = rev (fst set) ++ more /\ (forall x, In x more -> In x pixels) /\ (length pmap <= 256)%nat /\
    Forall2 (fun px i => nth_error pmap (Z.to_nat i) = Some px /\ 0 <= i < 256) pixels idxs.
Proof.
  induction pixels as [|px t IH]; intros [items n] rev_data pmap raw Hn Hle H; cbn [build_palette fst snd] in *.
  - injection H as <- <-. exists [], []. rewrite !app_nil_r. repeat split; [intros ? []|rewrite rev_length; lia|constructor].
  - destruct (insert_full list_Z_eqb px (items, n)) as [idx [items1 n1]] eqn:Eins.
    destruct (insert_full_spec _ (fun a b => proj1 (list_eqb_Z_spec a b)) _ _ _ _ _ _ Hn Eins) as (Hn1 & (more1 & Hm1 & Hmore1) & Hnth1 & Hidx & Hgrow).
    destruct (Nat.eqb_spec idx 256) as [|Hne]; [discriminate|].
    destruct (IH (items1, n1) _ _ _ Hn1 ltac:(cbn [snd]; lia) H) as (idxs & more & Hraw & Hpm & Hin & Hlen & HF). cbn [fst] in Hpm.
    exists (Z.of_nat idx :: idxs), (more1 ++ more). split; [|split; [|split; [|split; [exact Hlen|]]]].
    + rewrite Hraw. cbn [rev]. rewrite <- app_assoc. reflexivity.
    + rewrite Hpm, Hm1, app_assoc. reflexivity.
    + intros x Hx. apply in_app_or in Hx. destruct Hx as [Hx|Hx]; [left; symmetry; exact (Hmore1 x Hx)|right; exact (Hin x Hx)].
    + constructor; [|exact HF]. rewrite Nat2Z.id. split; [|lia].
      rewrite Hpm, nth_error_app1 by (rewrite rev_length; lia). exact Hnth1.
Qed.

Definition pal_entry (c : color_type) (px : list Z) : rgba8 :=
  match c with
  | Gray key =>
      let tp := match key with Some t => Some (t mod 256) | None => None end in
      match px with [g] => (g, g, g, if opt_eqb Z.eqb (Some g) tp then 0 else 255) | _ => (0, 0, 0, 255) end
  | RGB key =>
      let tp := match key with Some (r, g, b) => Some (r mod 256, g mod 256, b mod 256) | None => None end in
      match px with [r; g; b] => (r, g, b, if opt_eqb rgb16_eqb (Some (r, g, b)) tp then 0 else 255) | _ => (0, 0, 0, 255) end
  | GrayAlpha => match px with [g; a] => (g, g, g, a) | _ => (0, 0, 0, 255) end
  | RGBA => match px with [r; g; b; a] => (r, g, b, a) | _ => (0, 0, 0, 255) end
  | Indexed _ => (0, 0, 0, 255)
  end.

Lemma pixel_to_indexed c px pal i : is_indexed c = false -> length px = Z.to_nat (channels_per_pixel c) ->
  nth_error pal (Z.to_nat i) = Some (pal_entry c px) ->
  color_of_samples (SIndexed pal) 8 [i] = color_of_samples (spec_color_of c) 8 px.
Proof.
  intros Hni Hl Hn.
  change (color_of_samples (SIndexed pal) 8 [i]) with (match nth_error pal (Z.to_nat i) with Some (r, g, b, a) => Some (r * 257, g * 257, b * 257, a * 257) | None => None end).
  rewrite Hn.
  destruct c as [key|key| | |]; try discriminate; cbn [channels_per_pixel] in Hl.
  - destruct px as [|g [|? ?]]; try (cbn in Hl; lia). cbn [pal_entry spec_color_of color_of_samples].
    rewrite !scale16_8. unfold key_match. change (2 ^ 8) with 256.
    destruct key as [k|]; cbn [opt_eqb].
    + rewrite (Z.eqb_sym g). destruct (k mod 256 =? g); repeat (f_equal; try lia).
    + repeat (f_equal; try lia).
  - destruct px as [|r [|g [|b [|? ?]]]]; try (cbn in Hl; lia). cbn [pal_entry spec_color_of color_of_samples].
    rewrite !scale16_8. unfold key_match. change (2 ^ 8) with 256.
    destruct key as [[[kr kg] kb]|]; cbn [opt_eqb rgb16_eqb].
    + rewrite (Z.eqb_sym r), (Z.eqb_sym g), (Z.eqb_sym b). destruct (_ && _ && _); repeat (f_equal; try lia).
    + repeat (f_equal; try lia).
  - destruct px as [|g [|a [|? ?]]]; try (cbn in Hl; lia). cbn [pal_entry spec_color_of color_of_samples].
    rewrite !scale16_8. repeat (f_equal; try lia).
  - destruct px as [|r [|g [|b [|a [|? ?]]]]]; try (cbn in Hl; lia). cbn [pal_entry spec_color_of color_of_samples].
    rewrite !scale16_8. repeat (f_equal; try lia).
Qed.

Lemma pal_entry_ok c px : bytes_ok px -> rgba8_ok (pal_entry c px).
Proof.
  intros Hok. assert (D : rgba8_ok (0, 0, 0, 255)) by (unfold rgba8_ok, byte_ok; lia).
  destruct c; cbn [pal_entry]; try exact D.
  all: destruct px as [|x1 [|x2 [|x3 [|x4 [|? ?]]]]]; try exact D.
  all: repeat (apply bytes_ok_cons in Hok; destruct Hok as [? Hok]); unfold rgba8_ok, byte_ok in *.
  all: try destruct (opt_eqb _ _ _); lia.
Qed.

Lemma cols_to_indexed c pmap : is_indexed c = false -> forall pixels idxs,
  Forall2 (fun px i => nth_error pmap (Z.to_nat i) = Some px /\ 0 <= i < 256) pixels idxs ->
  Forall (fun px => length px = Z.to_nat (channels_per_pixel c)) pixels -> Forall bytes_ok pixels ->
  Forall2 (fun px px' => bytes_ok px' /\ length px' = 1%nat /\
             orel eq (pxcol (spec_color_of c) 8 px) (pxcol (spec_color_of (Indexed (map (pal_entry c) pmap))) 8 px'))
          pixels (map (fun i => [i]) idxs).
Proof.
  intros Hc pixels idxs HF. induction HF as [|px i ps is [Hn Hi] _ IH]; intros Hlens Hpok; cbn [map]; constructor.
  - assert (Bi : bytes_ok [i]) by (constructor; [exact Hi|constructor]). split; [exact Bi|]. split; [reflexivity|].
    inversion Hlens; inversion Hpok; subst. rewrite !pxcol8 by assumption.
    change (spec_color_of (Indexed ?p)) with (SIndexed p). rewrite (pixel_to_indexed c px _ i); auto; [apply orel_refl; reflexivity|]. rewrite (map_nth_error _ _ _ Hn). reflexivity.
  - inversion Hlens; inversion Hpok; auto.
Qed.

Lemma reduced_to_indexed_eq img ag : reduced_to_indexed img ag =
  if negb (depth (hdr img) =? 8) || is_indexed (ctype (hdr img)) || negb ag && is_gray (ctype (hdr img)) then None else
  match build_palette list_Z_eqb (chunks_exact (Z.to_nat (channels img)) (data img)) ([], 0%nat) [] with
  | Some (pmap, raw) => Some {| hdr := with_ctype (hdr img) (Indexed (map (pal_entry (ctype (hdr img))) pmap)); data := raw |}
  | None => None
  end.
Proof.
  unfold reduced_to_indexed. destruct (negb (depth (hdr img) =? 8)); [reflexivity|].
  destruct (ctype (hdr img)); cbn [is_indexed orb]; try reflexivity; destruct (negb ag && _); reflexivity.
Qed.

Theorem reduced_to_indexed_sem img img' ag pic : wf img ->
  reduced_to_indexed img ag = Some img' -> sem img = Some pic -> sem img' = Some pic /\ wf img'.
Proof.
  intros [Hok Hwf] Hred Hsem. rewrite reduced_to_indexed_eq in Hred.
  destruct (depth (hdr img) =? 8) eqn:Ed; cbn [negb orb] in Hred; [|discriminate]. apply Z.eqb_eq in Ed.
  destruct (is_indexed (ctype (hdr img))) eqn:Ei; cbn [orb] in Hred; [discriminate|].
  destruct (negb ag && is_gray (ctype (hdr img))); [discriminate|].
  set (B := Z.to_nat (channels img)) in *.
  set (pixels := chunks_exact B (data img)) in *.
  destruct (build_palette list_Z_eqb pixels ([], 0%nat) []) as [[pmap raw]|] eqn:Ebp; [|discriminate].
  destruct (build_palette_spec pixels ([], 0%nat) [] pmap raw eq_refl ltac:(cbn; lia) Ebp) as (idxs & more & Hraw & Hpm & Hin & Hplen & HF).
  cbn [rev fst app] in Hraw, Hpm. subst raw more. injection Hred as <-.
  assert (HB : (0 < B)%nat) by (unfold B, channels; pose proof (channels_pos (ctype (hdr img))); lia).
  apply sem_exact.
  apply (sem_pixels_rel eq img _ (Indexed (map (pal_entry (ctype (hdr img))) pmap)) B 1 (map (fun i => [i]) idxs) pic); rewrite ?Ed; auto.
  - symmetry. apply concat_map_singleton.
  - unfold B, channels. pose proof (channels_pos (ctype (hdr img))). lia.
  - split; [|rewrite map_length; exact Hplen]. rewrite Forall_map. apply Forall_forall. intros px Hpx.
    apply pal_entry_ok, (bytes_ok_chunk B (data img)); [exact Hok|apply Hin; exact Hpx].
  - apply cols_to_indexed; [exact Ei|exact HF|apply chunks_exact_lengths|].
    apply Forall_forall. intros px Hpx. apply (bytes_ok_chunk B (data img)); [exact Hok|exact Hpx].
Qed.

(* the common part of the reductions of an indexed image of depth 8, byte by byte, to colour type c' *)
Lemma indexed_reduction E img img' pal c' (conv : Z -> list Z) pic :
  wf img -> depth (hdr img) = 8 -> ctype (hdr img) = Indexed pal ->
  hdr img' = with_ctype (hdr img) c' -> data img' = concat (map conv (data img)) ->
  depth_legal (spec_color_of c') 8 = true -> wf_ctype c' 8 ->
  (forall b, In b (data img) -> 0 <= b < 256 ->
     bytes_ok (conv b) /\ length (conv b) = Z.to_nat (channels_per_pixel c') /\
     orel E (color_of_samples (SIndexed pal) 8 [b]) (pxcol (spec_color_of c') 8 (conv b))) ->
  sem img = Some pic ->
  (exists pic', sem img' = Some pic' /\ pic_rel E pic pic') /\ wf img'.
Proof.
  intros [Hok _] Hd Hc Hh Hdat Hlegal Hwf' Hpx Hsem. pose proof (channels_pos c') as Hch.
  apply (sem_pixels_rel E img img' c' 1 (Z.to_nat (channels_per_pixel c')) (map conv (data img)) pic); rewrite ?Hd, ?Hc; auto; try lia.
  rewrite chunks_exact_1. apply Forall2_map_both. rewrite <- (map_id (data img)) at 2. apply Forall2_map_in. intros b Hb.
  pose proof (bytes_ok_in _ _ Hok Hb) as Hr. rewrite pxcol8 by (constructor; [exact Hr|constructor]). exact (Hpx b Hb Hr).
Qed.

(* `ct` and `conv` of indexed_to_channels, with the palette and its two flags as parameters *)
Definition chan_ctype (is_g has_a : bool) : color_type :=
  match is_g, has_a with false, true => RGBA | false, false => RGB None | true, true => GrayAlpha | true, false => Gray None end.

Definition chan_px (pal : list rgba8) (is_g has_a : bool) (b : Z) : list Z :=
  let '(r, g, bl, a) := nth (Z.to_nat b) pal (0, 0, 0, 255) in
  (if is_g then [bl] else [r; g; bl]) ++ (if has_a then [a] else []).

Lemma pixel_indexed_to_channels pal (is_g has_a : bool) b : Forall rgba8_ok pal ->
  (is_g = true -> forall r g bl a, In (r, g, bl, a) pal -> r = bl /\ g = bl) ->
  (has_a = false -> forall r g bl a, In (r, g, bl, a) pal -> a = 255) ->
  bytes_ok (chan_px pal is_g has_a b) /\
  length (chan_px pal is_g has_a b) = Z.to_nat (channels_per_pixel (chan_ctype is_g has_a)) /\
  orel eq (color_of_samples (SIndexed pal) 8 [b]) (pxcol (spec_color_of (chan_ctype is_g has_a)) 8 (chan_px pal is_g has_a b)).
Proof.
  intros Hpal Hg Ha. unfold chan_px. cbn [color_of_samples]. unfold rgba8 in *.
  destruct (nth_error pal (Z.to_nat b)) as [[[[r g] bl] a]|] eqn:En.
  - rewrite (nth_error_nth _ _ _ En). pose proof (nth_error_In _ _ En) as Hin.
    rewrite Forall_forall in Hpal. destruct (Hpal _ Hin) as (Hr & Hgr & Hbl & Hal).
    assert (Hok : bytes_ok ((if is_g then [bl] else [r; g; bl]) ++ (if has_a then [a] else []))).
    { destruct is_g, has_a; repeat (constructor; [assumption|]); constructor. }
    split; [exact Hok|]. split; [destruct is_g, has_a; reflexivity|].
    rewrite pxcol8 by exact Hok. intros p Hp. injection Hp as <-. eexists. split; [|reflexivity].
    destruct is_g, has_a; cbn [chan_ctype spec_color_of app color_of_samples]; rewrite ?scale16_8;
      try (destruct (Hg eq_refl _ _ _ _ Hin) as [-> ->]); try rewrite (Ha eq_refl _ _ _ _ Hin);
      rewrite !(Z.mul_comm 257); reflexivity.
  - rewrite nth_overflow by (apply nth_error_None; exact En).
    split; [destruct is_g, has_a; repeat (constructor; [unfold byte_ok; lia|]); constructor|].
    split; [destruct is_g, has_a; reflexivity|]. intros p Hp. discriminate Hp.
Qed.

Theorem indexed_to_channels_sem img img' ag pic : wf img ->
  indexed_to_channels img ag false = Some img' -> sem img = Some pic -> sem img' = Some pic /\ wf img'.
Proof.
  intros Hwf Hred Hsem. unfold indexed_to_channels in Hred.
  destruct (depth (hdr img) =? 8) eqn:Ed; cbn [negb] in Hred; [|discriminate]. apply Z.eqb_eq in Ed.
  destruct (ctype (hdr img)) as [| |pal| |] eqn:Ec; try discriminate.
  set (is_g := if ag then forallb (fun c : rgba8 => let '(r, g, b, _) := c in (r =? g) && (g =? b)) pal else false) in *.
  set (has_a := existsb (fun c : rgba8 => let '(_, _, _, a) := c in negb (a =? 255)) pal) in *.
  destruct (INDEXED_MAX_DIFF <? _); [discriminate|]. injection Hred as <-. apply sem_exact.
  pose proof (proj2 Hwf) as Hpal. rewrite Ec in Hpal. destruct Hpal as [Hpal _].
  apply (indexed_reduction eq img _ pal (chan_ctype is_g has_a) (chan_px pal is_g has_a) pic); auto.
  - apply flat_map_concat_map.
  - destruct is_g, has_a; reflexivity.
  - destruct is_g, has_a; exact I.
  - intros b _ _. apply pixel_indexed_to_channels; [exact Hpal| |].
    + unfold is_g. destruct ag; [|discriminate]. intros Hall r g bl a Hin. rewrite forallb_forall in Hall.
      specialize (Hall _ Hin). cbn in Hall. lia.
    + intros Hex r g bl a Hin. destruct (Z.eqb_spec a 255) as [E|E]; [exact E|].
      assert (X : has_a = true) by (apply existsb_exists; exists (r, g, bl, a); split; [exact Hin|apply negb_true_iff, Z.eqb_neq, E]).
      congruence.
Qed.
