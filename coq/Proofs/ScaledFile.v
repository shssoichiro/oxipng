(* C15 down to the written file: with scale_16 requested, bit-depth reduction enabled (not an APNG) and the clock not expired at the
   16->8 step, whatever optimize_raw emits for a 16-bit input means the rounded picture, and the file written decodes to it. *)
From OxiVerif Require Import Base.Common Base.ListFacts Spec.Adam7 Spec.Sem Spec.Decode Spec.DecodeFile Model.Types Model.Options Model.Headers Model.PngData
  Model.Optimize Proofs.Bridge Proofs.LiftColor Proofs.ChunkProofs Proofs.PipelineProofs Proofs.PipelineLossless Proofs.FilterStream
  Proofs.EmittedStream Proofs.FileToFile Proofs.InputParse Proofs.ContainerOk Proofs.ScaledPipeline.
Local Open Scope Z_scope.

Theorem optimize_raw_scaled e o img max_size c pic :
  optimize_alpha o = false -> scale_16 o = true -> bit_depth_reduction o = true -> dl e S16to8 = false ->
  means pic img -> depth (hdr img) = 16 ->
  optimize_raw e o img max_size = Ok (Some c) -> means (scaled_picture img pic) (c_image c) /\ depth (hdr (c_image c)) <= 8.
Proof.
  intros Ha Hs Hbd Hdl Hm Hd H. apply (emitted_satisfies (fun i => means (scaled_picture img pic) i /\ depth (hdr i) <= 8) e o img max_size c); [|exact H].
  intros b evs Hpr.
  destruct (perform_reductions_scaled e o Ha Hs Hbd Hdl (scaled_picture img pic) img pic b evs Hm Hd eq_refl Hpr) as [Hb Hevs].
  split; [exact Hb|]. eapply Forall_impl; [|exact Hevs]. intros ev Hev. destruct ev; exact Hev.
Qed.

Theorem emitted_stream_of_means e o img max_size c pic' :
  optimize_alpha o = false -> means pic' (c_image c) ->
  optimize_raw e o img max_size = Ok (Some c) ->
  exists d stream, c_cdata c = z_deflate e d stream /\
    spec_decode_stream (width (hdr (c_image c))) (height (hdr (c_image c))) (spec_color_of (ctype (hdr (c_image c))))
                       (depth (hdr (c_image c))) (interlaced (hdr (c_image c))) stream = Some pic'.
Proof.
  intros Ha M H. destruct (emitted_stream_decodes e o img max_size c pic' H M) as (d & stream & pic2 & Hd & Hdec & _ & E).
  rewrite (E Ha) in Hdec. eauto.
Qed.

Lemma preprocess_keeps_actl e aux o : has_chunk name_acTL (fst (preprocess_chunks e aux o)) = has_chunk name_acTL aux.
Proof.
  unfold has_chunk. rewrite !existsb_filter, preprocess_keeps_filter; [reflexivity|]. intros c [E|E]; rewrite E; reflexivity.
Qed.

Lemma preprocess_keeps_bd e aux o : has_chunk name_acTL aux = false ->
  bit_depth_reduction (snd (preprocess_chunks e aux o)) = bit_depth_reduction o.
Proof.
  intros H. rewrite preprocess_bit_depth, preprocess_keeps_actl, H. apply andb_true_r.
Qed.

Theorem optimize_png_data_container_gen e o p p' N M pic :
  png_ok N p -> 0 <= N -> N + 5 <= M -> M + 4 < 2 ^ 31 -> (forall d s, lenZ (z_deflate e d s) <= M) ->
  0 <= width (hdr (raw p)) < 2 ^ 32 -> 0 <= height (hdr (raw p)) < 2 ^ 32 ->
  means pic (raw p) ->
  (forall ms c, optimize_raw e (snd (preprocess_chunks e (aux_chunks p) o)) (raw p) ms = Ok (Some c) ->
     exists pic1, means pic1 (c_image c) /\ pic_w pic1 = pic_w pic /\ pic_h pic1 = pic_h pic) ->
  optimize_png_data e p o = Ok p' -> container_ok p'.
Proof.
  intros Hpok HN HM HM2 Hdefl Hw Hh Hm Hraw H. apply (optimize_png_data_container_written e o p p' N M); try assumption.
  destruct (optimize_png_data_cases _ _ _ _ H) as [->|(ms & c & fr & Er & _ & ->)]; [exists pic; exact Hm|].
  destruct (Hraw ms c Er) as (pic1 & Hm1 & _). exists pic1. exact Hm1.
Qed.

Lemma scaled_picture_dims img pic : pic_w (scaled_picture img pic) = pic_w pic /\ pic_h (scaled_picture img pic) = pic_h pic.
Proof. split; reflexivity. Qed.

Section ScaledFile.
Variable e : env.
Variable o : options.
Variable inflate : list Z -> option (list Z).
Hypothesis Ha : optimize_alpha o = false.
Hypothesis Hs : scale_16 o = true.
Hypothesis Hbd : bit_depth_reduction o = true.
Hypothesis Hdl : dl e S16to8 = false.
Hypothesis Hz : forall d s, inflate (z_deflate e d s) = Some s.

Theorem optimize_png_data_scaled p p' pic N M :
  png_ok N p -> 0 <= N -> N + 5 <= M -> M + 4 < 2 ^ 31 -> (forall d s, lenZ (z_deflate e d s) <= M) ->
  0 <= width (hdr (raw p)) < 2 ^ 32 -> 0 <= height (hdr (raw p)) < 2 ^ 32 ->
  means pic (raw p) -> depth (hdr (raw p)) = 16 -> has_chunk name_acTL (aux_chunks p) = false ->
  (exists stream, inflate (idat_data p) = Some stream /\
     spec_decode_stream (width (hdr (raw p))) (height (hdr (raw p))) (spec_color_of (ctype (hdr (raw p)))) (depth (hdr (raw p)))
                        (interlaced (hdr (raw p))) stream = Some pic) ->
  optimize_png_data e p o = Ok p' ->
  (* nothing was emitted: the file keeps the input's image *)
  (raw p' = raw p /\ spec_decode_png inflate (output p') = Some pic) \/
  (* or the emitted image is 8-bit and the file decodes to the rounded picture *)
  (depth (hdr (raw p')) <= 8 /\ spec_decode_png inflate (output p') = Some (scaled_picture (raw p) pic)).
Proof.
  intros Hpok HN HM HM2 Hdefl Hw Hh Hm Hd Hactl Hstream H.
  destruct (preprocess_keeps_lossy e (aux_chunks p) o) as [Ea Es].
  pose proof (preprocess_keeps_bd e (aux_chunks p) o Hactl) as Eb.
  assert (Hraw : forall ms c, optimize_raw e (snd (preprocess_chunks e (aux_chunks p) o)) (raw p) ms = Ok (Some c) ->
                 means (scaled_picture (raw p) pic) (c_image c) /\ depth (hdr (c_image c)) <= 8).
  { intros ms c Hc. refine (optimize_raw_scaled e _ (raw p) ms c pic _ _ _ Hdl Hm Hd Hc); congruence. }
  assert (Hcont : container_ok p').
  { apply (optimize_png_data_container_gen e o p p' N M pic); auto.
    intros ms c Hc. exists (scaled_picture (raw p) pic). split; [apply (Hraw ms c Hc)|apply scaled_picture_dims]. }
  destruct (optimize_png_data_decodes_rel e o inflate p p' pic Hz Hstream H Hcont
              (fun i q => (i = raw p /\ q = pic) \/ (depth (hdr i) <= 8 /\ q = scaled_picture (raw p) pic)))
    as (pic' & D & [[E ->]|[E ->]]); auto.
  intros ms c Er. destruct (Hraw ms c Er) as [Hmc Hd8].
  rewrite <- Ea in Ha. destruct (emitted_stream_of_means e _ (raw p) ms c _ Ha Hmc Er) as (d & st & Ed & Hdd).
  exists d, st, (scaled_picture (raw p) pic). auto.
Qed.

Theorem optimize_from_memory_scaled bytes out pic nm ih rest M :
  bytes_ok bytes -> lenZ bytes + 5 <= M -> M + 4 < 2 ^ 31 -> (forall d s, lenZ (z_deflate e d s) <= M) ->
  spec_parse_png bytes = Some ((nm, ih) :: rest) ->
  spec_decode_chunks inflate ((nm, ih) :: rest) = Some pic ->
  List.filter (named spec_IHDR) rest = [] ->
  (length (List.filter (named spec_PLTE) rest) <= 1)%nat -> (length (List.filter (named spec_tRNS) rest) <= 1)%nat ->
  (forall x n y, z_inflate e x n = Ok y -> inflate x = Some y /\ bytes_ok y) ->
  (* the parsed input: address space and colour key as in the lossless theorems; 16 bits per sample, not animated *)
  (forall p, from_slice e bytes o = Ok p ->
     spec_raw_size (width (hdr (raw p))) (height (hdr (raw p))) (bpp (hdr (raw p))) (interlaced (hdr (raw p))) true <= usize_max /\
     wf_ctype (ctype (hdr (raw p))) (depth (hdr (raw p))) /\
     depth (hdr (raw p)) = 16 /\ has_chunk name_acTL (aux_chunks p) = false) ->
  optimize_from_memory e o bytes = Ok out ->
  exists p, from_slice e bytes o = Ok p /\
    (spec_decode_png inflate out = Some pic \/
     (exists p', out = output p' /\ depth (hdr (raw p')) <= 8) /\ spec_decode_png inflate out = Some (scaled_picture (raw p) pic)).
Proof.
  intros Hok HM HM2 Hdefl Hparse Hdec H1 H2 H3 Hzi Hside H.
  destruct (optimize_from_memory_cases _ _ _ _ H) as (p & Ep & Hout). exists p. split; [exact Ep|].
  destruct Hout as [->|(p' & Eo & ->)]; [left; unfold spec_decode_png; rewrite Hparse; exact Hdec|].
  destruct (Hside p Ep) as (Hu & Hw & Hd & Hactl).
  destruct (from_slice_means e o inflate bytes p pic nm ih rest Hok Ep Hparse Hdec H1 H2 H3 Hzi Hu Hw) as (Hwf & Hsem & Hstream).
  destruct (from_slice_png_ok e o bytes p Hok Ep) as (Hpok & Hrw & Hrh).
  destruct (optimize_png_data_scaled p p' pic (lenZ bytes) M Hpok ltac:(unfold lenZ; lia) HM HM2 Hdefl Hrw Hrh (conj Hwf Hsem) Hd Hactl Hstream Eo)
    as [[_ D]|[D8 D]]; [left; exact D|right]. split; [exists p'; auto|exact D].
Qed.
End ScaledFile.
