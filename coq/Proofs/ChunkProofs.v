(* C07, C14: the strip policy inside from_slice_step (by kind of chunk), postprocess_chunks as a filter, and preprocess_chunks as a
   decision about the first iCCP chunk (icc_decide / apply_icc_decision / gray_allowed) with the options it leaves. Also cname_eqb_eq. *)
From OxiVerif Require Import Base.Common Base.ListFacts Model.Types Model.Options Model.Headers Model.PngData.

(* the list used by the code for `--strip safe` is the list the manual documents *)
Lemma display_chunks_is_manual : DISPLAY_CHUNKS = SrcConsts.manual_safe_chunks.
Proof. reflexivity. Qed.

Lemma strip_keep_spec s name :
  strip_keep s name =
  match s with
  | StripNone => true
  | StripAll => false
  | StripSafe => existsb (cname_eqb name) SrcConsts.manual_safe_chunks
  | StripKeep l => existsb (cname_eqb name) l
  | StripStrip l => negb (existsb (cname_eqb name) l)
  end.
Proof. destruct s; reflexivity. Qed.

Definition is_critical (n : cname) : bool :=
  cname_eqb n name_IHDR || cname_eqb n name_PLTE || cname_eqb n name_tRNS || cname_eqb n name_IDAT.

Definition with_strip (o : options) (s : strip_chunks) : options :=
  {| fix_errors := fix_errors o; force := force o; filter := filter o; interlace := interlace o;
     optimize_alpha := optimize_alpha o; bit_depth_reduction := bit_depth_reduction o;
     color_type_reduction := color_type_reduction o; palette_reduction := palette_reduction o;
     grayscale_reduction := grayscale_reduction o; idat_recoding := idat_recoding o; scale_16 := scale_16 o;
     strip := s; deflate := deflate o; fast_evaluation := fast_evaluation o; has_timeout := has_timeout o |}.

(* the chunks that define the picture are dispatched before the policy is consulted *)
Theorem critical_never_stripped o s st c : is_critical (c_name c) = true ->
  from_slice_step (with_strip o s) st c = from_slice_step o st c.
Proof.
  unfold is_critical, from_slice_step. intros H.
  destruct (cname_eqb (c_name c) name_IDAT); [reflexivity|].
  destruct (cname_eqb (c_name c) name_IHDR); [reflexivity|].
  destruct (cname_eqb (c_name c) name_PLTE); [reflexivity|].
  destruct (cname_eqb (c_name c) name_tRNS); [reflexivity|].
  discriminate.
Qed.

Lemma not_critical n : is_critical n = false ->
  cname_eqb n name_IDAT = false /\ cname_eqb n name_IHDR = false /\ cname_eqb n name_PLTE = false /\ cname_eqb n name_tRNS = false.
Proof. unfold is_critical. rewrite !orb_false_iff. tauto. Qed.

(* a stripped ancillary chunk leaves no trace in the parser state *)
Theorem stripped_is_ignored o st c : is_critical (c_name c) = false -> strip_keep (strip o) (c_name c) = false ->
  from_slice_step o st c = Ok st.
Proof. intros H Hk. unfold from_slice_step. destruct (not_critical _ H) as (-> & -> & -> & ->). rewrite Hk. reflexivity. Qed.

(* a kept ordinary ancillary chunk is appended unchanged (name and payload) *)
Theorem kept_is_recorded o st c : is_critical (c_name c) = false -> strip_keep (strip o) (c_name c) = true ->
  is_c2pa (c_name c) (c_data c) = false ->
  cname_eqb (c_name c) name_acTL = false ->
  cname_eqb (c_name c) name_fcTL = false -> cname_eqb (c_name c) name_fdAT = false ->
  exists st', from_slice_step o st c = Ok st' /\ fs_aux st' = c :: fs_aux st /\ fs_idat st' = fs_idat st /\ fs_frames st' = fs_frames st.
Proof.
  intros H Hk Hc H0 H1 H2. unfold from_slice_step. destruct (not_critical _ H) as (-> & -> & -> & ->).
  rewrite Hk, Hc, H0, H1, H2. cbn [orb andb]. eexists. split; [reflexivity|]. cbn. auto.
Qed.

Lemma cname_eqb_eq a b : cname_eqb a b = true -> a = b.
Proof. apply list_eqb_Z_spec. Qed.

Lemma c2pa_is_cabx n d : is_c2pa n d = true -> n = name_caBX.
Proof. unfold is_c2pa. destruct (cname_eqb n name_caBX) eqn:E; [intros _; apply cname_eqb_eq; exact E|discriminate]. Qed.

(* C2PA manifest: dropped under the default policy, an error under any other policy that keeps it *)
Theorem c2pa_policy o st c : is_critical (c_name c) = false -> is_c2pa (c_name c) (c_data c) = true ->
  from_slice_step o st c =
    if strip_keep (strip o) (c_name c) then (if strip_is_none (strip o) then Ok st else Err EC2PA) else Ok st.
Proof.
  intros H Hc. unfold from_slice_step. destruct (not_critical _ H) as (-> & -> & -> & ->).
  rewrite Hc, (c2pa_is_cabx _ _ Hc). cbn [cname_eqb list_eqb name_caBX name_acTL name_fcTL name_fdAT Z.eqb Pos.eqb orb andb]. reflexivity.
Qed.

Definition droppable_on_format_change (n : cname) : bool :=
  cname_eqb n name_bKGD || cname_eqb n name_sBIT || cname_eqb n name_hIST.
Definition droppable_on_gray_change (n : cname) : bool := cname_eqb n name_sRGB || cname_eqb n name_iCCP.

Theorem postprocess_spec aux hd orig :
  postprocess_chunks aux hd orig =
  List.filter (fun c =>
    negb ((negb (depth orig =? depth hd) || negb (color_type_eqb (ctype orig) (ctype hd))) && droppable_on_format_change (c_name c))
    && negb (negb (Bool.eqb (is_gray (ctype orig)) (is_gray (ctype hd))) && droppable_on_gray_change (c_name c))) aux.
Proof.
  unfold postprocess_chunks, droppable_on_format_change, droppable_on_gray_change.
  destruct (negb (depth orig =? depth hd) || negb (color_type_eqb (ctype orig) (ctype hd)));
  destruct (negb (Bool.eqb (is_gray (ctype orig)) (is_gray (ctype hd)))); cbn [andb negb].
  - apply filter_filter.
  - apply filter_ext. intros c. rewrite andb_true_r. reflexivity.
  - reflexivity.
  - symmetry. apply filter_true.
Qed.

(* nothing is invented *)
Theorem postprocess_sublist aux hd orig : forall c, In c (postprocess_chunks aux hd orig) -> In c aux.
Proof. intros c. rewrite postprocess_spec. intros H. apply filter_In in H. apply H. Qed.

Theorem postprocess_unchanged_format aux hd : postprocess_chunks aux hd hd = aux.
Proof.
  unfold postprocess_chunks. rewrite Z.eqb_refl.
  assert (E : color_type_eqb (ctype hd) (ctype hd) = true).
  { destruct (ctype hd) as [[k|]|[[[r g] b]|]|p| |]; cbn; rewrite ?Z.eqb_refl; auto.
    induction p as [|[[[r g] b] a] t IH]; cbn; auto. rewrite !Z.eqb_refl, IH. reflexivity. }
  rewrite E. cbn [negb orb]. rewrite eqb_reflx. reflexivity.
Qed.

Definition may_replace_iccp (o : options) : bool := negb (strip_is_none (strip o)) && strip_keep (strip o) name_sRGB.

(* the exact decision taken for the ICC profile chunk *)
Inductive icc_decision :=
| IccAbsent                      (* no iCCP chunk *)
| IccDroppedForSrgb              (* removed because an sRGB chunk is present *)
| IccReplaced (intent : Z)       (* replaced by an sRGB chunk with this rendering intent *)
| IccRecompressed (c : chunk)    (* replaced by a smaller iCCP chunk *)
| IccKept.                       (* left as it is *)

Definition icc_decide (e : env) (aux : list chunk) (o : options) : icc_decision :=
  match chunk_position name_iCCP aux O with
  | None => IccAbsent
  | Some idx =>
      if may_replace_iccp o && has_chunk name_sRGB aux then IccDroppedForSrgb else
      match nth_error aux idx with
      | None => IccKept
      | Some iccp =>
          match extract_icc e iccp with
          | None => IccKept
          | Some icc =>
              match (if may_replace_iccp o then srgb_rendering_intent icc else None) with
              | Some i => IccReplaced i
              | None =>
                  if idat_recoding o then
                    match make_iccp e icc (deflate o) (Some (lenZ (c_data iccp) - 1)) with
                    | Ok n => IccRecompressed n
                    | _ => IccKept
                    end
                  else IccKept
              end
          end
      end
  end.

Definition apply_icc_decision (aux : list chunk) (d : icc_decision) : list chunk :=
  match d, chunk_position name_iCCP aux O with
  | IccDroppedForSrgb, Some idx => remove_nth_chunk idx aux
  | IccReplaced i, Some idx => set_nth idx {| c_name := name_sRGB; c_data := [i] |} aux
  | IccRecompressed n, Some idx => set_nth idx n aux
  | _, _ => aux
  end.

(* grayscale conversions stay allowed exactly in these situations *)
Definition gray_allowed (e : env) (aux : list chunk) (o : options) : bool :=
  match icc_decide e aux o with
  | IccAbsent => negb (has_chunk name_sRGB aux) || negb (strip_is_none (strip o))
  | IccDroppedForSrgb | IccReplaced _ => true
  | IccRecompressed _ | IccKept => false
  end.

Theorem preprocess_chunks_spec e aux o :
  fst (preprocess_chunks e aux o) = apply_icc_decision aux (icc_decide e aux o) /\
  let o' := snd (preprocess_chunks e aux o) in
  let apng := has_chunk name_acTL (apply_icc_decision aux (icc_decide e aux o)) in
  grayscale_reduction o' = (grayscale_reduction o && gray_allowed e aux o && negb apng) /\
  bit_depth_reduction o' = (bit_depth_reduction o && negb apng) /\
  color_type_reduction o' = (color_type_reduction o && negb apng) /\
  palette_reduction o' = (palette_reduction o && negb apng) /\
  interlace o' = (if apng then None else interlace o) /\
  strip o' = strip o /\ deflate o' = deflate o /\ idat_recoding o' = idat_recoding o /\ force o' = force o /\
  optimize_alpha o' = optimize_alpha o /\ scale_16 o' = scale_16 o /\ filter o' = filter o /\
  fast_evaluation o' = fast_evaluation o.
Proof.
  unfold preprocess_chunks.
  (* the branch on the iCCP chunk computes the decision and whether grayscale stays allowed *)
  match goal with |- context [let '(a, g) := ?X in _] =>
    assert (E : X = (apply_icc_decision aux (icc_decide e aux o), gray_allowed e aux o)) end.
  { unfold gray_allowed, icc_decide, apply_icc_decision, may_replace_iccp.
    destruct (chunk_position name_iCCP aux 0) as [idx|]; [|reflexivity].
    destruct (negb (strip_is_none (strip o)) && strip_keep (strip o) name_sRGB && has_chunk name_sRGB aux); [reflexivity|].
    destruct (nth_error aux idx) as [iccp|]; [|reflexivity]. destruct (extract_icc e iccp) as [icc|]; [|reflexivity].
    match goal with |- context [if ?b then srgb_rendering_intent icc else None] => destruct (if b then srgb_rendering_intent icc else None) end;
      [reflexivity|].
    destruct (idat_recoding o); [destruct (make_iccp _ _ _ _)|]; reflexivity. }
  rewrite E. cbn [fst snd]. split; [reflexivity|].
  destruct (gray_allowed e aux o), (has_chunk name_acTL _), (grayscale_reduction o) eqn:Eg; cbn; rewrite ?Eg, ?andb_false_r, ?andb_true_r; tauto.
Qed.

Section PreprocessFields.
Variable e : env.
Variable aux : list chunk.
Variable o : options.
Let o' := snd (preprocess_chunks e aux o).
Let apng := has_chunk name_acTL (fst (preprocess_chunks e aux o)).

Lemma preprocess_aux : fst (preprocess_chunks e aux o) = apply_icc_decision aux (icc_decide e aux o).
Proof. exact (proj1 (preprocess_chunks_spec e aux o)). Qed.
Lemma preprocess_grayscale : grayscale_reduction o' = grayscale_reduction o && gray_allowed e aux o && negb apng.
Proof. destruct (preprocess_chunks_spec e aux o) as (Ea & Hg & _). unfold apng. rewrite Ea. exact Hg. Qed.
Lemma preprocess_bit_depth : bit_depth_reduction o' = bit_depth_reduction o && negb apng.
Proof. destruct (preprocess_chunks_spec e aux o) as (Ea & _ & Hb & _). unfold apng. rewrite Ea. exact Hb. Qed.
Lemma preprocess_color_type : color_type_reduction o' = color_type_reduction o && negb apng.
Proof. destruct (preprocess_chunks_spec e aux o) as (Ea & _ & _ & Hc & _). unfold apng. rewrite Ea. exact Hc. Qed.
Lemma preprocess_palette : palette_reduction o' = palette_reduction o && negb apng.
Proof. destruct (preprocess_chunks_spec e aux o) as (Ea & _ & _ & _ & Hp & _). unfold apng. rewrite Ea. exact Hp. Qed.
Lemma preprocess_interlace : interlace o' = if apng then None else interlace o.
Proof. destruct (preprocess_chunks_spec e aux o) as (Ea & _ & _ & _ & _ & Hi & _). unfold apng. rewrite Ea. exact Hi. Qed.
Lemma preprocess_keeps_lossy : optimize_alpha o' = optimize_alpha o /\ scale_16 o' = scale_16 o.
Proof.
  destruct (preprocess_chunks_spec e aux o) as (_ & _ & _ & _ & _ & _ & Hstrip & Hdeflate & Hrecode & Hforce & Halpha & Hscale & _).
  exact (conj Halpha Hscale).
Qed.
End PreprocessFields.

Lemma chunk_position_split name l : forall i idx, chunk_position name l i = Some idx ->
  exists pre c post, l = pre ++ c :: post /\ idx = (i + length pre)%nat /\ cname_eqb (c_name c) name = true.
Proof.
  induction l as [|c t IH]; intros i idx H; cbn [chunk_position] in H; [discriminate|].
  destruct (cname_eqb (c_name c) name) eqn:E.
  - injection H as <-. exists [], c, t. cbn. split; [reflexivity|]. split; [lia|exact E].
  - destruct (IH _ _ H) as (pre & c' & post & -> & -> & Hc). exists (c :: pre), c', post. cbn [app length]. split; [reflexivity|]. split; [lia|exact Hc].
Qed.

(* an ICC profile is replaced by an sRGB chunk only when stripping is enabled, sRGB chunks are kept
   and the profile is a recognised sRGB profile; the new chunk carries the profile's rendering intent *)
Theorem icc_replaced_only_if e aux o i : icc_decide e aux o = IccReplaced i ->
  strip_is_none (strip o) = false /\ strip_keep (strip o) name_sRGB = true /\
  exists iccp icc, In iccp aux /\ cname_eqb (c_name iccp) name_iCCP = true /\ extract_icc e iccp = Some icc /\
                   srgb_rendering_intent icc = Some i /\ nth_error icc 67 = Some i.
Proof.
  unfold icc_decide. intros H.
  destruct (chunk_position name_iCCP aux 0) as [idx|] eqn:Ep; [|discriminate].
  destruct (may_replace_iccp o && has_chunk name_sRGB aux); [discriminate|].
  destruct (chunk_position_split _ _ _ _ Ep) as (pre & c0 & post & -> & -> & Hc0). rewrite nth_error_app2, Nat.sub_diag in H by lia. cbn [nth_error] in H.
  destruct (extract_icc e c0) as [icc|] eqn:Ex; [|discriminate].
  destruct (if may_replace_iccp o then srgb_rendering_intent icc else None) as [j|] eqn:Es;
    [|destruct (idat_recoding o); [destruct (make_iccp _ _ _ _)|]; discriminate].
  injection H as <-. destruct (may_replace_iccp o) eqn:Em; [|discriminate].
  unfold may_replace_iccp in Em. rewrite andb_true_iff, negb_true_iff in Em. destruct Em as [A B]. split; [exact A|]. split; [exact B|].
  exists c0, icc. split; [apply in_elt|]. split; [exact Hc0|]. split; [exact Ex|]. split; [exact Es|].
  unfold srgb_rendering_intent in Es. destruct (nth_error icc 67) as [v|]; [|discriminate].
  cbv zeta in Es. destruct (length icc <? 100)%nat; [discriminate|]. destruct (existsb _ SRGB_PROFILE_IDS); [exact Es|].
  destruct (forallb _ _); [|discriminate]. destruct (existsb _ SRGB_BAD_CRCS); [exact Es|discriminate].
Qed.

(* … or dropped in favour of an sRGB chunk already present, under the same conditions *)
Theorem icc_dropped_only_if e aux o : icc_decide e aux o = IccDroppedForSrgb ->
  strip_is_none (strip o) = false /\ strip_keep (strip o) name_sRGB = true /\ has_chunk name_sRGB aux = true.
Proof.
  unfold icc_decide. intros H.
  destruct (chunk_position name_iCCP aux 0) as [idx|]; [|discriminate].
  destruct (may_replace_iccp o && has_chunk name_sRGB aux) eqn:E.
  - unfold may_replace_iccp in E. rewrite !andb_true_iff, negb_true_iff in E. tauto.
  - destruct (nth_error aux idx) as [c|]; [|discriminate].
    destruct (extract_icc e c) as [icc|]; [|discriminate].
    destruct (if may_replace_iccp o then srgb_rendering_intent icc else None); [discriminate|].
    destruct (idat_recoding o); [destruct (make_iccp _ _ _ _)|]; discriminate.
Qed.

(* an image carrying an ICC profile that is kept (as is or recompressed) is never converted
   between grayscale and colour *)
Theorem icc_kept_no_gray_change e aux o :
  (icc_decide e aux o = IccKept \/ exists c, icc_decide e aux o = IccRecompressed c) ->
  grayscale_reduction (snd (preprocess_chunks e aux o)) = false.
Proof.
  intros H. rewrite preprocess_grayscale.
  unfold gray_allowed. destruct H as [-> | [c ->]]; rewrite andb_false_r; reflexivity.
Qed.

(* an image tagged sRGB (and no ICC profile) may be converted only if stripping is enabled *)
Theorem srgb_gray_change_only_if_strip e aux o :
  chunk_position name_iCCP aux O = None -> has_chunk name_sRGB aux = true -> strip_is_none (strip o) = true ->
  grayscale_reduction (snd (preprocess_chunks e aux o)) = false.
Proof.
  intros Hn Hs Hst. rewrite preprocess_grayscale.
  unfold gray_allowed, icc_decide. rewrite Hn, Hs, Hst. cbn. rewrite andb_false_r. reflexivity.
Qed.

(* a recompressed profile inflates to the identical profile bytes, for any zlib oracle whose inflate
   inverts its deflate *)
Theorem iccp_recompressed_same_profile e icc d mx c :
  (forall dd x n, lenZ x <= n -> z_inflate e (z_deflate e dd x) n = Ok x) ->
  lenZ icc <= lenZ (z_deflate e d icc) * 2 + 1000 ->
  make_iccp e icc d mx = Ok c -> extract_icc e c = Some icc /\ c_name c = name_iCCP.
Proof.
  intros Hz Hlen H. unfold make_iccp, deflate_capped in H.
  destruct mx as [m|].
  - destruct (m <? lenZ (z_deflate e d icc)); cbn [bind] in H; [discriminate|]. injection H as <-. cbn.
    unfold extract_icc. cbn. rewrite Hz by exact Hlen. auto.
  - cbn [bind] in H. injection H as <-. cbn. unfold extract_icc. cbn. rewrite Hz by exact Hlen. auto.
Qed.
