(* Pixel-level semantic lemmas for the reductions (C01, C03, C15): what each reduction does to the
   samples of one pixel preserves (or, for scaling, rounds) the RGBA value the specification assigns. *)
From OxiVerif Require Import Base.Common Spec.Sem Model.Types Model.BitDepth Proofs.Bridge.

Lemma scale16_16 v : scale16 16 v = v.
Proof. unfold scale16. change (2 ^ 16 - 1) with 65535. rewrite Z.div_mul by lia. reflexivity. Qed.
Lemma scale16_8 b : scale16 8 b = 257 * b.
Proof. unfold scale16. change (2 ^ 8 - 1) with 255. replace (b * 65535) with (257 * b * 255) by lia. rewrite Z.div_mul by lia. reflexivity. Qed.

Definition u16 (v : Z) : Prop := 0 <= v < 65536.

Lemma key_match_16 k v : u16 k -> key_match 16 k v = (k =? v).
Proof. unfold key_match, u16. intros. change (2 ^ 16) with 65536. rewrite Z.mod_small by lia. reflexivity. Qed.
Lemma key_match_8 k b : 0 <= k < 256 -> key_match 8 k b = (k =? b).
Proof. unfold key_match. intros. change (2 ^ 8) with 256. rewrite Z.mod_small by lia. reflexivity. Qed.

Lemma exact_16_to_8_range k k8 : u16 k -> exact_16_to_8 k = Some k8 -> 0 <= k8 < 256.
Proof. unfold exact_16_to_8, u16. intros H. destruct (_ =? _); [|discriminate]. intros E. injection E as <-. Z.div_mod_to_equations. lia. Qed.

(* key conversion of reduced_bit_depth_16_to_8 (fix F1): a sample 257*b matches the 16-bit key exactly when b matches the
   converted key; a key whose two bytes differ is no 257*b and matches no such sample *)
Lemma key_16_to_8 k b : u16 k ->
  key_match 16 k (257 * b) = match exact_16_to_8 k with Some k8 => key_match 8 k8 b | None => false end.
Proof.
  intros Hk. rewrite key_match_16 by exact Hk. unfold exact_16_to_8, u16 in *.
  destruct (Z.eqb_spec (k / 256) (k mod 256)) as [E|E].
  - rewrite key_match_8 by (Z.div_mod_to_equations; lia). destruct (Z.eqb_spec k (257 * b)), (Z.eqb_spec (k / 256) b); try reflexivity; Z.div_mod_to_equations; lia.
  - apply Z.eqb_neq. Z.div_mod_to_equations. lia.
Qed.

Theorem pixel_16_to_8_gray key b : (forall k, key = Some k -> u16 k) -> 0 <= b < 256 ->
  color_of_samples (spec_color_of (Gray key)) 16 [257 * b]
  = color_of_samples (spec_color_of (color_type_16_to_8 (Gray key) exact_16_to_8)) 8 [b].
Proof.
  intros Hk Hb. destruct key as [k|]; cbn [color_type_16_to_8 spec_color_of color_of_samples].
  - rewrite scale16_16, scale16_8, (key_16_to_8 k b) by auto.
    destruct (exact_16_to_8 k); reflexivity.
  - rewrite scale16_16, scale16_8. reflexivity.
Qed.

Theorem pixel_16_to_8_rgb key r g b :
  (forall kr kg kb, key = Some (kr, kg, kb) -> u16 kr /\ u16 kg /\ u16 kb) ->
  0 <= r < 256 -> 0 <= g < 256 -> 0 <= b < 256 ->
  color_of_samples (spec_color_of (RGB key)) 16 [257 * r; 257 * g; 257 * b]
  = color_of_samples (spec_color_of (color_type_16_to_8 (RGB key) exact_16_to_8)) 8 [r; g; b].
Proof.
  intros Hk Hr Hg Hb. destruct key as [[[kr kg] kb]|]; cbn [color_type_16_to_8 spec_color_of color_of_samples].
  - destruct (Hk kr kg kb eq_refl) as (H1 & H2 & H3).
    rewrite !scale16_16, (key_16_to_8 kr r), (key_16_to_8 kg g), (key_16_to_8 kb b) by assumption.
    destruct (exact_16_to_8 kr), (exact_16_to_8 kg), (exact_16_to_8 kb); cbn [spec_color_of color_of_samples];
      rewrite ?scale16_8, ?andb_false_r; reflexivity.
  - rewrite !scale16_16, !scale16_8. reflexivity.
Qed.

Theorem pixel_16_to_8_gray_alpha b a : 0 <= b < 256 -> 0 <= a < 256 ->
  color_of_samples SGrayAlpha 16 [257 * b; 257 * a] = color_of_samples SGrayAlpha 8 [b; a].
Proof. intros. cbn [color_of_samples]. rewrite !scale16_16, !scale16_8. reflexivity. Qed.

Theorem pixel_16_to_8_rgba r g b a : 0 <= r < 256 -> 0 <= g < 256 -> 0 <= b < 256 -> 0 <= a < 256 ->
  color_of_samples SRGBA 16 [257 * r; 257 * g; 257 * b; 257 * a] = color_of_samples SRGBA 8 [r; g; b; a].
Proof. intros. cbn [color_of_samples]. rewrite !scale16_16, !scale16_8. reflexivity. Qed.

(* the code's shortcut `hi == lo => hi` agrees with (v + 128) / 257, the integer form of its float expression (Model/BitDepth.v);
   round8_nearest: that form is rounding to nearest, and no ties exist *)
Theorem scale8_is_round8 v : u16 v -> scale_16_to_8 v = round8 v.
Proof.
  unfold u16, scale_16_to_8, round8. intros H. destruct (v / 256 =? v mod 256) eqn:E; [|reflexivity].
  apply Z.eqb_eq in E. Z.div_mod_to_equations. lia.
Qed.

Theorem round8_nearest v : u16 v -> 0 <= round8 v < 256 /\ Z.abs (257 * round8 v - v) <= 128 /\
  (forall b, 0 <= b < 256 -> b <> round8 v -> Z.abs (257 * round8 v - v) < Z.abs (257 * b - v)).
Proof. unfold u16, round8. intros H. repeat split; try (Z.div_mod_to_equations; lia). Qed.

Example round8_examples : round8 255 = 1 /\ round8 (257 * 200) = 200 /\ scale_16_to_8 255 = 1 /\ scale_16_to_8 4660 = 18.
Proof. vm_compute. auto. Qed.

Theorem scaled_key_is_rounded c :
  (match c with
   | Gray (Some k) => u16 k
   | RGB (Some (r, g, b)) => u16 r /\ u16 g /\ u16 b
   | _ => True end) ->
  spec_color_of (color_type_16_to_8 c (fun v => Some (scale_16_to_8 v))) = round_key (spec_color_of c).
Proof.
  destruct c as [[k|]|[[[r g] b]|]|p| |]; cbn [color_type_16_to_8 spec_color_of round_key]; intros H; try reflexivity.
  - rewrite scale8_is_round8 by auto. reflexivity.
  - destruct H as (H1 & H2 & H3). rewrite !scale8_is_round8 by auto. reflexivity.
Qed.

Theorem pixel_scaled c vs :
  (match c with
   | Gray (Some k) => u16 k
   | RGB (Some (r, g, b)) => u16 r /\ u16 g /\ u16 b
   | _ => True end) ->
  Forall u16 vs ->
  color_of_samples (spec_color_of (color_type_16_to_8 c (fun v => Some (scale_16_to_8 v)))) 8 (map scale_16_to_8 vs)
  = color_of_samples (round_key (spec_color_of c)) 8 (map round8 vs).
Proof.
  intros Hc Hv. rewrite scaled_key_is_rounded by auto. f_equal.
  induction Hv as [|v l Hvv Hl IH]; cbn [map]; [reflexivity|]. rewrite scale8_is_round8 by auto. rewrite IH. reflexivity.
Qed.

Theorem pixel_rgb_to_gray key d v : (d = 8 \/ d = 16) -> 0 <= v < 2 ^ d ->
  (forall kr kg kb, key = Some (kr, kg, kb) -> 0 <= kr < 2 ^ d /\ 0 <= kg < 2 ^ d /\ 0 <= kb < 2 ^ d) ->
  color_of_samples (SRGB key) d [v; v; v]
  = color_of_samples (SGray (match key with
                             | Some (r, g, b) => if (r =? g) && (g =? b) then Some r else None
                             | None => None end)) d [v].
Proof.
  intros Hd Hv Hk. destruct key as [[[kr kg] kb]|]; cbn [color_of_samples]; [|reflexivity].
  destruct (Hk kr kg kb eq_refl) as (H1 & H2 & H3). unfold key_match. rewrite !Z.mod_small by lia.
  destruct (Z.eqb_spec kr kg) as [<-|N]; [destruct (Z.eqb_spec kr kb) as [<-|N]|]; cbn [andb].
  - rewrite Z.mod_small by lia. destruct (kr =? v); reflexivity.
  - destruct (Z.eqb_spec kr v), (Z.eqb_spec kb v); try reflexivity; congruence.
  - destruct (Z.eqb_spec kr v), (Z.eqb_spec kg v); try reflexivity; congruence.
Qed.

Theorem pixel_rgba_to_gray_alpha d v a : color_of_samples SRGBA d [v; v; v; a] = color_of_samples SGrayAlpha d [v; a].
Proof. reflexivity. Qed.

Theorem pixel_drop_alpha_gray d v : (d = 8 \/ d = 16) ->
  color_of_samples SGrayAlpha d [v; 2 ^ d - 1] = color_of_samples (SGray None) d [v].
Proof.
  intros [-> | ->]; cbn [color_of_samples]; unfold scale16; repeat f_equal; reflexivity.
Qed.
Theorem pixel_drop_alpha_rgb d r g b : (d = 8 \/ d = 16) ->
  color_of_samples SRGBA d [r; g; b; 2 ^ d - 1] = color_of_samples (SRGB None) d [r; g; b].
Proof.
  intros [-> | ->]; cbn [color_of_samples]; unfold scale16; repeat f_equal; reflexivity.
Qed.

Theorem pixel_transparent_rgba d r g b r' g' b' :
  match color_of_samples SRGBA d [r; g; b; 0], color_of_samples SRGBA d [r'; g'; b'; 0] with
  | Some p, Some q => rgba_alpha_equivb p q = true
  | _, _ => False
  end.
Proof. cbn [color_of_samples rgba_alpha_equivb]. unfold scale16. rewrite Z.mul_0_l, Zdiv_0_l. reflexivity. Qed.

Theorem pixel_transparent_gray_alpha d v v' :
  match color_of_samples SGrayAlpha d [v; 0], color_of_samples SGrayAlpha d [v'; 0] with
  | Some p, Some q => rgba_alpha_equivb p q = true
  | _, _ => False
  end.
Proof. cbn [color_of_samples rgba_alpha_equivb]. unfold scale16. rewrite Z.mul_0_l, Zdiv_0_l. reflexivity. Qed.

Theorem pixel_transparent_to_key_gray d v t : 0 <= t < 2 ^ d -> 0 < d ->
  match color_of_samples SGrayAlpha d [v; 0], color_of_samples (SGray (Some t)) d [t] with
  | Some p, Some q => rgba_alpha_equivb p q = true
  | _, _ => False
  end.
Proof.
  intros Ht Hd. cbn [color_of_samples rgba_alpha_equivb]. unfold key_match. rewrite Z.mod_small by lia.
  rewrite Z.eqb_refl. unfold scale16. rewrite Z.mul_0_l, Zdiv_0_l. reflexivity.
Qed.

Lemma rgba_alpha_equivb_refl p : rgba_alpha_equivb p p = true.
Proof. destruct p as [[[r g] b] a]. cbn. rewrite !Z.eqb_refl. cbn. apply orb_true_r. Qed.
Lemma rgba_alpha_equivb_sym p q : rgba_alpha_equivb p q = true -> rgba_alpha_equivb q p = true.
Proof.
  destruct p as [[[r g] b] a], q as [[[r' g'] b'] a']. cbn.
  rewrite !andb_true_iff, !orb_true_iff, !andb_true_iff, !Z.eqb_eq. intros [-> [Hz|[[-> ->] ->]]]; split; auto.
Qed.
Lemma rgba_alpha_equivb_trans p q s : rgba_alpha_equivb p q = true -> rgba_alpha_equivb q s = true -> rgba_alpha_equivb p s = true.
Proof.
  destruct p as [[[r g] b] a], q as [[[r' g'] b'] a'], s as [[[r2 g2] b2] a2]. cbn.
  rewrite !andb_true_iff, !orb_true_iff, !andb_true_iff, !Z.eqb_eq. intros [-> [Hz|[[-> ->] ->]]] [-> H2]; split; auto.
Qed.
