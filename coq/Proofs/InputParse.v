(* C01, input side: PngData::from_slice reads a well-formed PNG datastream the way the specification's whole-file decoder does.
   The chunk walker returns the specification's chunk list, the loop collects the IDAT payloads and the IHDR / PLTE / tRNS data,
   parse_ihdr_chunk builds the header whose colour interpretation is the specification's, and PngImage::new's image means the
   picture the specification decodes (UnfilterImage). *)
From OxiVerif Require Import Base.Common Base.ListFacts Base.Crc32 Spec.Filter Spec.Adam7 Spec.Sem Spec.Decode Spec.DecodeFile
  Model.Types Model.Options Model.Headers Model.PngData
  Proofs.Bridge Proofs.LiftReductions Proofs.LiftColor Proofs.RobustProofs Proofs.UnfilterImage.
Local Open Scope Z_scope.

Lemma sbe32_be32_of l : (4 <= length l)%nat -> sbe32 l = be32_of l.
Proof. destruct l as [|a [|b [|c [|d t]]]]; cbn [length]; try lia. intros _. reflexivity. Qed.

Definition as_chunk (c : list Z * list Z) : chunk := {| c_name := fst c; c_data := snd c |}.

(* what the specification has checked when it accepts a chunk *)
Lemma spec_parse_inv f bytes cs : spec_parse_chunks (S f) bytes = Some cs ->
  let n := Z.to_nat (sbe32 bytes) in
  let name := firstn 4 (skipn 4 bytes) in let data := firstn n (skipn 8 bytes) in let rest := skipn n (skipn 8 bytes) in
  (12 <= length bytes)%nat /\ 12 + sbe32 bytes <= lenZ bytes /\ sbe32 rest = crc32 (name ++ data) /\
  exists t, cs = (name, data) :: t /\
    if list_eqb Z.eqb name spec_IEND then t = [] else spec_parse_chunks f (skipn 4 rest) = Some t.
Proof.
  cbn [spec_parse_chunks]. intros H.
  destruct (Nat.ltb_spec (length bytes) 12); [discriminate|].
  destruct (Z.ltb_spec (lenZ bytes) (12 + sbe32 bytes)); [rewrite orb_true_r in H; discriminate|]. rewrite orb_false_r in H.
  destruct (sbe32 bytes <? 0); [discriminate|].
  match type of H with context [negb (?a =? ?b)] => destruct (Z.eqb_spec a b) end; [|discriminate]. cbn [negb] in H.
  repeat split; [assumption..|].
  destruct (list_eqb Z.eqb _ spec_IEND).
  - destruct (skipn 4 _); [|discriminate]. injection H as <-. exists []. split; reflexivity.
  - destruct (spec_parse_chunks f _) as [t|]; [|discriminate]. injection H as <-. exists t. split; reflexivity.
Qed.

(* on such a chunk parse_next_chunk returns it, whether or not it is asked to check the CRC *)
Lemma parse_next_chunk_spec bytes fx :
  let n := Z.to_nat (sbe32 bytes) in
  let name := firstn 4 (skipn 4 bytes) in let data := firstn n (skipn 8 bytes) in let rest := skipn n (skipn 8 bytes) in
  bytes_ok bytes -> (12 <= length bytes)%nat -> 12 + sbe32 bytes <= lenZ bytes -> sbe32 rest = crc32 (name ++ data) ->
  parse_next_chunk bytes fx = if list_eqb Z.eqb name spec_IEND then Ok None else Ok (Some (as_chunk (name, data), skipn 4 rest)).
Proof.
  cbv zeta. intros Hok Hl12. rewrite (sbe32_be32_of bytes) by lia. intros Hfit.
  pose proof (be32_of_nonneg bytes Hok) as Hnn.
  set (n := Z.to_nat (be32_of bytes)). set (rest := skipn n (skipn 8 bytes)).
  assert (Hrl : (4 <= length rest)%nat) by (unfold rest; rewrite !skipn_length; unfold lenZ in Hfit; lia).
  rewrite (sbe32_be32_of rest Hrl). intros Hcrc.
  unfold parse_next_chunk. destruct (Nat.ltb_spec (length bytes) 4); [lia|].
  destruct (Z.ltb_spec (lenZ bytes) (12 + be32_of bytes)); [lia|]. unfold cname_eqb, name_IEND. fold spec_IEND.
  destruct (list_eqb Z.eqb (firstn 4 (skipn 4 bytes)) spec_IEND); [reflexivity|].
  assert (Ebody : skipn 4 (skipn 4 bytes) = skipn 8 bytes) by (clear; destruct bytes as [|a [|b [|c [|d t]]]]; reflexivity).
  assert (Ecrc : crc32 (firstn (4 + n) (skipn 4 bytes)) = be32_of rest).
  { rewrite Hcrc, <- Ebody. f_equal.
    destruct (skipn 4 bytes) as [|a [|b [|c [|d tl]]]]; cbn [Nat.add firstn skipn app]; rewrite ?firstn_nil; reflexivity. }
  rewrite Ebody. fold n rest. rewrite Ecrc, Z.eqb_refl. cbn [negb]. rewrite andb_false_r. reflexivity.
Qed.

Lemma spec_parse_last : forall fs bytes cs, spec_parse_chunks fs bytes = Some cs ->
  exists body d, cs = body ++ [(spec_IEND, d)] /\ Forall (fun c => list_eqb Z.eqb (fst c) spec_IEND = false) body.
Proof.
  induction fs as [|f IH]; intros bytes cs H; [discriminate|].
  destruct (spec_parse_inv f bytes cs H) as (_ & _ & _ & t & -> & Ht).
  destruct (list_eqb Z.eqb (firstn 4 (skipn 4 bytes)) spec_IEND) eqn:E.
  - rewrite Ht. apply list_eqb_Z_spec in E. rewrite E. eexists [], _. split; [reflexivity|constructor].
  - destruct (IH _ _ Ht) as (body & d & -> & F). eexists (_ :: body), d. split; [reflexivity|]. constructor; [exact E|exact F].
Qed.

Lemma spec_parse_nonempty fuel bytes cs : spec_parse_chunks fuel bytes = Some cs -> cs <> [].
Proof. intros H. destruct (spec_parse_last _ _ _ H) as ([|? ?] & d & -> & _); discriminate. Qed.

Fixpoint fold_steps (o : options) (st : fs_state) (cs : list chunk) : res fs_state :=
  match cs with
  | [] => Ok st
  | c :: t => do st' <- from_slice_step o st c; fold_steps o st' t
  end.

Lemma loop_is_fold o : forall fs bytes cs, bytes_ok bytes -> spec_parse_chunks fs bytes = Some cs ->
  (12 * length cs <= length bytes)%nat /\
  forall fuel st, (length cs <= fuel)%nat -> from_slice_loop fuel o bytes st = fold_steps o st (map as_chunk (removelast cs)).
Proof.
  induction fs as [|f IH]; intros bytes cs Hok H; [discriminate|].
  destruct (spec_parse_inv f bytes cs H) as (Hl12 & Hfit & Hcrc & t & -> & Ht).
  pose proof (parse_next_chunk_spec bytes (fix_errors o) Hok Hl12 Hfit Hcrc) as E. cbv zeta in E.
  destruct (list_eqb Z.eqb (firstn 4 (skipn 4 bytes)) spec_IEND).
  - rewrite Ht. split; [cbn [length]; lia|].
    intros fuel st Hf. destruct fuel as [|fuel]; [cbn in Hf; lia|]. cbn [from_slice_loop removelast map fold_steps]. rewrite E. reflexivity.
  - destruct (parse_next_chunk_data _ _ _ _ Hok E) as (_ & Hoka & Hla).
    destruct (IH _ t Hoka Ht) as [Hc Hloop]. split; [cbn [length]; lia|].
    intros fuel st Hf. destruct fuel as [|fuel]; [cbn in Hf; lia|]. cbn [from_slice_loop]. rewrite E. cbn [bind].
    destruct t as [|c2 t]; [exfalso; exact (spec_parse_nonempty _ _ _ Ht eq_refl)|]. cbn [removelast map fold_steps].
    destruct (from_slice_step o st _) as [st1|?|?]; cbn [bind]; try reflexivity.
    apply Hloop. cbn [length] in Hf |- *. lia.
Qed.

Lemma from_slice_parsed e o bytes p cs : bytes_ok bytes -> from_slice e bytes o = Ok p -> spec_parse_png bytes = Some cs ->
  exists st ih hd img,
    fold_steps o fs_start (map as_chunk (removelast cs)) = Ok st /\
    fs_idat st <> [] /\ fs_ihdr st = Some ih /\
    parse_ihdr_chunk ih (fs_plte st) (fs_trns st) = Ok hd /\ png_image_new e hd (fs_idat st) = Ok img /\
    p = {| raw := img; idat_data := fs_idat st; aux_chunks := rev (fs_aux st); frames := rev (fs_frames st) |}.
Proof.
  intros Hok H Hparse. destruct (from_slice_inv _ _ _ _ H) as (st & ih & hd & img & _ & Eloop & Hrest).
  unfold spec_parse_png in Hparse. destruct (list_eqb Z.eqb (firstn 8 bytes) spec_signature); [|discriminate].
  destruct (loop_is_fold o _ _ cs (bytes_ok_skipn 8 bytes Hok) Hparse) as [Hcnt Hloop]. rewrite skipn_length in Hcnt.
  rewrite Hloop in Eloop by (apply le_S, Nat.div_le_lower_bound; lia). exists st, ih, hd, img. exact (conj Eloop Hrest).
Qed.

Definition is_name (n : cname) (c : chunk) : bool := cname_eqb (c_name c) n.
Definition last_named (n : cname) (cs : list chunk) (d : option (list Z)) : option (list Z) :=
  fold_left (fun acc c => if is_name n c then Some (c_data c) else acc) cs d.

Lemma step_fields o st c st1 : from_slice_step o st c = Ok st1 ->
  fs_idat st1 = (if is_name name_IDAT c then fs_idat st ++ c_data c else fs_idat st) /\
  fs_ihdr st1 = (if is_name name_IHDR c then Some (c_data c) else fs_ihdr st) /\
  fs_plte st1 = (if is_name name_PLTE c then Some (c_data c) else fs_plte st) /\
  fs_trns st1 = (if is_name name_tRNS c then Some (c_data c) else fs_trns st).
Proof.
  intros H. pose proof (from_slice_step_spec o st c) as K. rewrite H in K. destruct K as (F1 & F2 & F3 & F4 & _). exact (conj F1 (conj F2 (conj F3 F4))).
Qed.

Lemma fold_fields o : forall cs st st', fold_steps o st cs = Ok st' ->
  fs_idat st' = fs_idat st ++ flat_map c_data (List.filter (is_name name_IDAT) cs) /\
  fs_ihdr st' = last_named name_IHDR cs (fs_ihdr st) /\
  fs_plte st' = last_named name_PLTE cs (fs_plte st) /\
  fs_trns st' = last_named name_tRNS cs (fs_trns st).
Proof.
  induction cs as [|c t IH]; intros st st' H; cbn [fold_steps] in H.
  - injection H as <-. cbn. rewrite app_nil_r. auto.
  - apply bind_Ok in H as (st1 & Es & H).
    destruct (step_fields o st c st1 Es) as (F1 & F2 & F3 & F4). destruct (IH st1 st' H) as (G1 & G2 & G3 & G4).
    unfold last_named in *. cbn [List.filter fold_left flat_map]. rewrite G1, G2, G3, G4, F1, F2, F3, F4.
    destruct (is_name name_IDAT c); cbn [flat_map]; rewrite <- ?app_assoc; auto.
Qed.

(* the loop keeps the last chunk of a name, the specification looks up the first: the same when there is at most one *)
Lemma last_named_find (n : list Z) : forall (l : list (list Z * list Z)) d, (length (List.filter (named n) l) <= 1)%nat ->
  last_named n (map as_chunk l) d = match find (named n) l with Some c => Some (snd c) | None => d end.
Proof.
  unfold last_named. induction l as [|c t IH]; intros d H; cbn [map fold_left find List.filter] in *; [reflexivity|].
  change (is_name n (as_chunk c)) with (named n c). destruct (named n c).
  - cbn [length] in H. rewrite IH by lia. rewrite find_filter. destruct (List.filter (named n) t); [reflexivity|cbn in H; lia].
  - apply IH. exact H.
Qed.

Lemma data_of_chunks (n : list Z) (l : list (list Z * list Z)) :
  flat_map c_data (List.filter (is_name n) (map as_chunk l)) = flat_map snd (List.filter (named n) l).
Proof.
  induction l as [|c t IH]; cbn [map List.filter]; [reflexivity|]. change (is_name n (as_chunk c)) with (named n c).
  destruct (named n c); cbn [flat_map]; rewrite IH; reflexivity.
Qed.

(* from_slice on a datastream with one IHDR (in front), at most one PLTE and one tRNS: the header is built from, and the image
   decoded from, what the specification finds in the chunk list *)
Lemma from_slice_reads e o bytes p ih rest : bytes_ok bytes -> from_slice e bytes o = Ok p ->
  spec_parse_png bytes = Some ((spec_IHDR, ih) :: rest) ->
  List.filter (named spec_IHDR) rest = [] ->
  (length (List.filter (named spec_PLTE) rest) <= 1)%nat -> (length (List.filter (named spec_tRNS) rest) <= 1)%nat ->
  exists hd,
    parse_ihdr_chunk ih (option_map snd (find (named spec_PLTE) rest)) (option_map snd (find (named spec_tRNS) rest)) = Ok hd /\
    png_image_new e hd (idat_data p) = Ok (raw p) /\ idat_data p = flat_map snd (List.filter (named spec_IDAT) rest).
Proof.
  intros Hok H Hparse HnoIHDR Hplte1 Htrns1.
  destruct (from_slice_parsed e o bytes p _ Hok H Hparse) as (st & ih' & hd & img & Efold & _ & Gihdr & Ehd & Eimg & ->).
  unfold spec_parse_png in Hparse. destruct (list_eqb Z.eqb (firstn 8 bytes) spec_signature); [|discriminate].
  destruct (spec_parse_last _ _ _ Hparse) as ([|b0 body] & dend & Ecs & _); cbn [app] in Ecs; [injection Ecs as E _; discriminate|].
  injection Ecs as <- ->. rewrite app_comm_cons, removelast_last in Efold.
  (* the IEND chunk, which the loop does not see, is none of those looked for *)
  rewrite filter_last_other in HnoIHDR, Hplte1, Htrns1 |- * by reflexivity. rewrite !find_last_other by reflexivity.
  destruct (fold_fields o _ _ _ Efold) as (F1 & F2 & F3 & F4).
  rewrite data_of_chunks in F1. rewrite last_named_find in F2, F3, F4; simpl List.filter.
  - simpl in F1, F2, F3, F4. rewrite F2 in Gihdr. injection Gihdr as <-. rewrite F3, F4 in Ehd.
    exists hd. exact (conj Ehd (conj Eimg F1)).
  - exact Htrns1.
  - exact Hplte1.
  - change name_IHDR with spec_IHDR. rewrite HnoIHDR. cbn [length]. lia.
Qed.

Lemma zip_alpha_spec (tr : list (Z * Z * Z)) : forall al,
  zip_alpha (map (fun c : Z * Z * Z => let '(r, g, b) := c in (r, g, b, 255)) tr) al = with_alpha tr al.
Proof.
  induction tr as [|[[r g] b] t IH]; intros al; cbn [map zip_alpha with_alpha]; [destruct al; reflexivity|].
  destruct al as [|a ta]; [f_equal; rewrite <- (IH []); destruct (map _ t) as [|[[[? ?] ?] ?] ?]; reflexivity|]. f_equal. apply IH.
Qed.

Lemma spec_color_codes code rest c : spec_color_of_chunks code rest = Some c ->
  code = 0 \/ code = 2 \/ code = 3 \/ code = 4 \/ code = 6.
Proof.
  unfold spec_color_of_chunks. intros H. destruct code as [|p|p]; try discriminate; [lia|].
  do 3 (destruct p as [p|p|]; try discriminate; try lia).
Qed.

(* the header built from the PLTE and tRNS data that the specification finds in the chunk list has the specification's colour *)
Lemma parse_ihdr_spec ih rest hd c :
  parse_ihdr_chunk ih (option_map snd (find (named spec_PLTE) rest)) (option_map snd (find (named spec_tRNS) rest)) = Ok hd ->
  spec_color_of_chunks (nth 9 ih 0) rest = Some c -> spec_color_of (ctype hd) = c.
Proof.
  unfold parse_ihdr_chunk, spec_color_of_chunks. intros H Hc.
  destruct (nth_error ih 12) as [il|]; [|discriminate].
  apply bind_Ok in H as (ct & Ect & H).
  destruct (negb (depth_valid (nth 8 ih 0))); [discriminate|]. destruct (negb ((il =? 0) || (il =? 1))); [discriminate|].
  match type of H with (if ?b then _ else _) = _ => destruct b end; [|discriminate]. injection H as <-. cbn [ctype].
  destruct (spec_color_codes _ _ _ Hc) as [E0|[E2|[E3|[E4|E6]]]].
  - rewrite E0 in Ect, Hc. injection Ect as <-. injection Hc as <-. cbn [spec_color_of]. f_equal.
    destruct (find (named spec_tRNS) rest) as [[? t]|]; [|reflexivity]. destruct t as [|a [|b t]]; cbn; reflexivity.
  - rewrite E2 in Ect, Hc. injection Ect as <-. injection Hc as <-. cbn [spec_color_of]. f_equal.
    destruct (find (named spec_tRNS) rest) as [[? t]|]; [|reflexivity].
    destruct t as [|a1 [|a2 [|a3 [|a4 [|a5 [|a6 t]]]]]]; cbn; reflexivity.
  - rewrite E3 in Ect, Hc. injection Ect as <-. destruct (find (named spec_PLTE) rest) as [[? pl]|]; [|discriminate]. injection Hc as <-.
    cbn [spec_color_of]. f_equal. cbn [option_map snd palette_to_rgba]. change (Headers.triples pl) with (DecodeFile.triples pl).
    destruct (find (named spec_tRNS) rest) as [[? t]|]; [apply zip_alpha_spec|]. rewrite <- (zip_alpha_spec _ []).
    destruct (map _ (DecodeFile.triples pl)) as [|[[[? ?] ?] ?] ?]; reflexivity.
  - rewrite E4 in Ect, Hc. injection Ect as <-. injection Hc as <-. reflexivity.
  - rewrite E6 in Ect, Hc. injection Ect as <-. injection Hc as <-. reflexivity.
Qed.

Lemma spec_decode_stream_some w h c d il stream pic : spec_decode_stream w h c d il stream = Some pic ->
  0 < w /\ 0 < h /\ 0 < d * spec_channels c /\ depth_legal c d = true.
Proof.
  unfold spec_decode_stream, spec_unfilter. intros H.
  destruct (Z.leb_spec w 0); [discriminate|]. destruct (Z.leb_spec h 0); [discriminate|]. destruct (Z.leb_spec (d * spec_channels c) 0); [discriminate|].
  cbn [orb] in H. destruct (cut_filtered _ stream); [|discriminate]. destruct (spec_recon_seq _ _ _); [|discriminate].
  unfold spec_sem in H. destruct (depth_legal c d); [|discriminate]. repeat split; auto.
Qed.

Theorem from_slice_means (e : env) (o : options) (inflate : list Z -> option (list Z)) bytes p pic nm ih rest :
  bytes_ok bytes ->
  from_slice e bytes o = Ok p ->
  spec_parse_png bytes = Some ((nm, ih) :: rest) ->
  spec_decode_chunks inflate ((nm, ih) :: rest) = Some pic ->
  (* a valid datastream has one IHDR, at most one PLTE and one tRNS *)
  List.filter (named spec_IHDR) rest = [] ->
  (length (List.filter (named spec_PLTE) rest) <= 1)%nat -> (length (List.filter (named spec_tRNS) rest) <= 1)%nat ->
  (* the decompressor of the code is the specification's, and returns bytes *)
  (forall x n y, z_inflate e x n = Ok y -> inflate x = Some y /\ bytes_ok y) ->
  (* the image fits the address space; colour key within the sample range and at most 256 byte-valued palette entries *)
  spec_raw_size (width (hdr (raw p))) (height (hdr (raw p))) (bpp (hdr (raw p))) (interlaced (hdr (raw p))) true <= usize_max ->
  wf_ctype (ctype (hdr (raw p))) (depth (hdr (raw p))) ->
  wf (raw p) /\ sem (raw p) = Some pic /\
  exists stream, inflate (idat_data p) = Some stream /\
    spec_decode_stream (width (hdr (raw p))) (height (hdr (raw p))) (spec_color_of (ctype (hdr (raw p)))) (depth (hdr (raw p)))
                       (interlaced (hdr (raw p))) stream = Some pic.
Proof.
  intros Hok H Hparse Hdec HnoIHDR Hplte1 Htrns1 Hz Husz Hwfc. unfold spec_decode_chunks in Hdec.
  destruct (list_eqb Z.eqb nm spec_IHDR) eqn:Enm; [|discriminate]. apply list_eqb_Z_spec in Enm. subst nm.
  destruct (from_slice_reads e o bytes p ih rest Hok H Hparse HnoIHDR Hplte1 Htrns1) as (hd & Ehd & Eimg & Eidat).
  destruct (Nat.eqb_spec (length ih) 13) as [Hih13|]; [|discriminate]. cbn [andb] in Hdec.
  destruct ((nth 10 ih 0 =? 0) && (nth 11 ih 0 =? 0) && ((nth 12 ih 0 =? 0) || (nth 12 ih 0 =? 1))); [|discriminate].
  destruct (spec_color_of_chunks (nth 9 ih 0) rest) as [c|] eqn:Ecol; [|discriminate].
  destruct (inflate (flat_map snd (List.filter (named spec_IDAT) rest))) as [stream'|] eqn:Einf; [|discriminate].
  pose proof (parse_ihdr_spec ih rest hd c Ehd Ecol) as Hc. destruct (parse_ihdr_fields _ _ _ _ Ehd) as (Hw & Hh & Hd & Hil).
  rewrite <- (sbe32_be32_of ih) in Hw by lia. rewrite <- (sbe32_be32_of (skipn 4 ih)) in Hh by (rewrite skipn_length; lia).
  rewrite <- Hw, <- Hh, <- Hd, <- Hil, <- Hc in Hdec.
  destruct (spec_decode_stream_some _ _ _ _ _ _ _ Hdec) as (Pw & Ph & Pb & Pl).
  rewrite spec_channels_of in Pb. fold (bpp hd) in Pb.
  pose proof (png_image_new_hdr _ _ _ _ Eimg) as Hhdr. rewrite Hhdr in Husz, Hwfc.
  destruct (png_image_new_sem e hd _ (raw p) Eimg Pl ltac:(lia) Husz ltac:(lia) ltac:(lia) (fun x n y Hy => proj2 (Hz x n y Hy)))
    as (stream & Ez & _ & Hdok & _ & Hsem).
  destruct (Hz _ _ _ Ez) as [Hinf _]. rewrite <- Eidat in Einf. rewrite Hinf in Einf. injection Einf as <-.
  split; [split; [exact Hdok|rewrite Hhdr; exact Hwfc]|]. split; [rewrite Hsem; exact Hdec|].
  exists stream. split; [exact Hinf|]. rewrite Hhdr. exact Hdec.
Qed.
