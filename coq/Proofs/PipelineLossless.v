(* C01 and C03 at the level of perform_reductions and of optimize_raw: every image on the main line, every candidate handed to
   the evaluator and the image that is emitted have the meaning of the input (C03: up to alpha equivalence), for every option
   vector with scale_16 off (C01: and optimize_alpha off), every clock oracle and every input image.
   One theorem for a relation on pictures, built from the image-level theorems of the Lift files through ReductionInv. *)
From OxiVerif Require Import Base.Common Spec.Sem Model.Types Model.Options Model.Interlace Model.BitDepth Model.Reductions Proofs.Bridge
  Proofs.PixelProofs Proofs.LiftReductions Proofs.LiftColor Proofs.LiftPalette Proofs.LiftBits Proofs.LiftInterlace Proofs.LiftDeinterlace
  Proofs.LiftMzeng Proofs.LiftBattiato Proofs.LiftAlpha Proofs.ReductionInv Model.Optimize Proofs.PipelineProofs.

Definition means (pic : picture) (i : image) : Prop := wf i /\ sem i = Some pic.

Lemma wf_key16 img pic : wf img -> sem img = Some pic -> depth (hdr img) = 16 -> key16_ok (ctype (hdr img)).
Proof.
  intros [_ Hwf] Hsem Hd. pose proof (sem_some_legal _ _ Hsem) as Hl. rewrite Hd in *.
  destruct (ctype (hdr img)) as [[k|]|[[[r g] b]|]|pal| |]; cbn in *; auto; try discriminate.
Qed.

(* both conversions of 16-bit samples (exact, rounding) give bytes: the converted key and the converted data are well-formed at depth 8 *)
Lemma wf_ctype_16_to_8 c f : (forall v w, u16 v -> f v = Some w -> 0 <= w < 256) -> key16_ok c ->
  wf_ctype (color_type_16_to_8 c f) 8.
Proof.
  intros Hf Hk. destruct c as [[k|]|[[[r g] b]|]|pal| |]; cbn [color_type_16_to_8 key16_ok] in *; try exact I; try contradiction.
  - destruct (f k) as [k8|] eqn:E; [exact (Hf k k8 Hk E)|exact I].
  - destruct Hk as (Hr & Hg & Hb). destruct (f r) eqn:E1, (f g) eqn:E2, (f b) eqn:E3; try exact I.
    exact (conj (Hf _ _ Hr E1) (conj (Hf _ _ Hg E2) (Hf _ _ Hb E3))).
Qed.

Lemma bytes_ok_map_pairs (g : Z * Z -> Z) l : (forall p, byte_ok (fst p) -> byte_ok (snd p) -> byte_ok (g p)) ->
  bytes_ok l -> bytes_ok (map g (pairs l)).
Proof.
  intros Hg Hok. pose proof (bytes_ok_pairs _ Hok) as P. rewrite Forall_forall in P. apply Forall_forall. intros b Hb.
  apply in_map_iff in Hb as (p & <- & Hp). destruct (P p Hp). auto.
Qed.

Lemma reduced_16_to_8_means img img' pic : means pic img ->
  reduced_bit_depth_16_to_8 img false = Some img' -> means pic img'.
Proof.
  intros [Hwf Hsem] Hred.
  assert (Hd : depth (hdr img) = 16).
  { unfold reduced_bit_depth_16_to_8 in Hred. destruct (depth (hdr img) =? 16) eqn:E; [apply Z.eqb_eq; exact E|discriminate]. }
  pose proof (wf_key16 _ _ Hwf Hsem Hd) as Hk.
  assert (Hsem' : sem img' = Some pic) by (eapply reduced_16_to_8_sem; eauto; apply Hwf).
  split; [|exact Hsem'].
  unfold reduced_bit_depth_16_to_8 in Hred. rewrite Hd in Hred. change (16 =? 16) with true in Hred. cbn [negb] in Hred.
  destruct (existsb _ (pairs (data img))); [discriminate|]. injection Hred as <-.
  destruct Hwf as [Hok Hwfc]. split.
  - exact (bytes_ok_map_pairs fst _ (fun _ H _ => H) Hok).
  - exact (wf_ctype_16_to_8 _ _ exact_16_to_8_range Hk).
Qed.

(* the shape of the image-level theorems (LiftColor, LiftPalette, LiftBits): E is the equation that says r comes from i *)
Lemma means_via {E : Prop} pic i r : (wf i -> E -> sem i = Some pic -> sem r = Some pic /\ wf r) -> E -> means pic i -> means pic r.
Proof. intros H He [W S]. destruct (H W He S). split; assumption. Qed.

Lemma interlace_means i il r pic : means pic i -> change_interlacing i il = Ok (Some r) -> means pic r.
Proof.
  intros M H. unfold change_interlacing in H.
  destruct (Bool.eqb il (interlaced (hdr i))) eqn:E; [discriminate|]. apply eqb_false_iff in E.
  destruct il; apply bind_Ok in H as (x & Ei & [= <-]); revert Ei M; apply means_via; intros W.
  - apply interlace_image_sem; [exact W|]. destruct (interlaced (hdr i)); congruence.
  - apply deinterlace_image_sem; [exact W|]. destruct (interlaced (hdr i)); congruence.
Qed.

(* well-formed, meaning a picture that [pic] is related to: with equality this is `means`, with alpha equivalence `ameans` below *)
Section Rel.
Variable R : picture -> picture -> Prop.

Definition rmeans (pic : picture) (i : image) : Prop := exists pic', means pic' i /\ R pic pic'.

(* the shapes of image-level theorem: one that keeps the picture (stated with `means`, or with wf and sem apart), one that
   changes it up to alpha equivalence *)
Lemma rmeans_exact {E : Prop} pic i r : (forall pic', E -> means pic' i -> means pic' r) -> E -> rmeans pic i -> rmeans pic r.
Proof. intros H He (p' & M & A). exists p'. split; [exact (H p' He M)|exact A]. Qed.

Lemma rmeans_sem {E : Prop} pic i r :
  (forall pic', wf i -> E -> sem i = Some pic' -> sem r = Some pic' /\ wf r) -> E -> rmeans pic i -> rmeans pic r.
Proof. intros H. apply rmeans_exact. intros p. exact (means_via _ _ _ (H p)). Qed.

Lemma rmeans_alpha {E : Prop} pic i r : (forall a b c, R a b -> pic_aequiv b c -> R a c) ->
  (forall pic', wf i -> E -> sem i = Some pic' -> (exists pic'', sem r = Some pic'' /\ pic_aequiv pic' pic'') /\ wf r) ->
  E -> rmeans pic i -> rmeans pic r.
Proof.
  intros HR H He (p' & [W S] & A). destruct (H p' W He S) as [(p'' & S' & A') W']. exists p''.
  split; [split; assumption|]. exact (HR _ _ _ A A').
Qed.

(* R has to absorb alpha equivalence only if the alpha optimisation is allowed *)
Theorem perform_reductions_rmeans e o img pic baseline evs :
  (optimize_alpha o = true -> forall a b c, R a b -> pic_aequiv b c -> R a c) ->
  scale_16 o = false ->
  rmeans pic img ->
  perform_reductions e o img = Ok (baseline, evs) ->
  rmeans pic baseline /\ Forall (ev_ok (rmeans pic)) evs.
Proof.
  intros HR Hs Hm Hp.
  revert Hp. apply (perform_reductions_inv (rmeans pic) (rmeans pic) (fun i H => H) e o).
  - intros Ha i r. exact (rmeans_alpha _ _ _ (HR Ha) (fun p => cleaned_alpha_channel_aequiv i r p)).
  - intros _ i r. rewrite Hs. apply rmeans_exact. intros p Hr M. exact (reduced_16_to_8_means _ _ _ M Hr).
  - intros _ _ i r. exact (rmeans_sem _ _ _ (fun p => reduced_rgb_to_grayscale_sem i r p)).
  - intros _ i r. exact (rmeans_sem _ _ _ (fun p => expanded_bit_depth_to_8_sem i r p)).
  - intros _ i r. destruct (optimize_alpha o) eqn:Ha.
    + exact (rmeans_alpha _ _ _ (HR eq_refl) (fun p => reduced_palette_aequiv i r p)).
    + exact (rmeans_sem _ _ _ (fun p => reduced_palette_sem i r p)).
  - intros _ i r. exact (rmeans_sem _ _ _ (fun p => sorted_palette_sem i r p)).
  - intros _ i r. destruct (optimize_alpha o) eqn:Ha.
    + exact (rmeans_alpha _ _ _ (HR eq_refl) (fun p => reduced_alpha_channel_aequiv i r p)).
    + exact (rmeans_sem _ _ _ (fun p => reduced_alpha_channel_sem i r p)).
  - intros _ i r. destruct (optimize_alpha o) eqn:Ha.
    + exact (rmeans_alpha _ _ _ (HR eq_refl) (fun p => indexed_to_channels_aequiv i r _ p)).
    + exact (rmeans_sem _ _ _ (fun p => indexed_to_channels_sem i r _ p)).
  - intros _ i red Hr Hi.
    pose proof (rmeans_sem _ _ _ (fun p => reduced_to_indexed_sem i red _ p) Hr Hi) as Hred.
    split; [exact Hred|]. intros r Hr2. exact (rmeans_sem _ _ _ (fun p => sorted_palette_sem red r p) Hr2 Hred).
  - intros _ i r. exact (rmeans_sem _ _ _ (fun p W H S => sorted_palette_battiato_sem i r p W S H)).
  - intros _ i r. exact (rmeans_sem _ _ _ (fun p W H S => sorted_palette_mzeng_sem i r p W S H)).
  - intros _ i r. exact (rmeans_sem _ _ _ (fun p => reduced_bit_depth_8_or_less_sem i r p)).
  - intros st0 E0. destruct (s_interlace_cases _ _ _ E0) as (png & -> & [->|(il & _ & Ec)]); [exact Hm|].
    revert Ec Hm. apply rmeans_exact. intros p Hr M. exact (interlace_means _ _ _ _ M Hr).
Qed.

End Rel.

Definition cand_means (pic : picture) (ev : rd_event) : Prop :=
  match ev with EvSubmit i _ => means pic i | _ => True end.

Theorem perform_reductions_lossless_partial e o img pic baseline evs :
  optimize_alpha o = false -> scale_16 o = false ->
  means pic img ->
  perform_reductions e o img = Ok (baseline, evs) ->
  means pic baseline /\ Forall (cand_means pic) evs.
Proof.
  intros Ha Hs Hm Hp.
  assert (F : forall i, rmeans eq pic i -> means pic i) by (intros i (p & M & ->); exact M).
  destruct (perform_reductions_rmeans eq e o img pic baseline evs) as [Hb Hevs]; auto.
  - rewrite Ha. discriminate.
  - exists pic. auto.
  - split; [exact (F _ Hb)|]. eapply Forall_impl; [|exact Hevs]. intros [] H; [exact I|exact (F _ H)].
Qed.

Definition ameans (pic : picture) (i : image) : Prop := exists pic', means pic' i /\ pic_aequiv pic pic'.

Definition cand_ameans (pic : picture) (ev : rd_event) : Prop :=
  match ev with EvSubmit i _ => ameans pic i | _ => True end.

Theorem perform_reductions_alpha_partial e o img pic baseline evs :
  scale_16 o = false ->
  ameans pic img ->
  perform_reductions e o img = Ok (baseline, evs) ->
  ameans pic baseline /\ Forall (cand_ameans pic) evs.
Proof. exact (perform_reductions_rmeans pic_aequiv e o img pic baseline evs (fun _ => pic_aequiv_trans)). Qed.

(* the image of the candidate chosen by optimize_raw (whatever the evaluator schedule, the compressor and the clock did) means
   what the input means *)
Theorem optimize_raw_lossless_partial e o img max_size c pic :
  optimize_alpha o = false -> scale_16 o = false -> means pic img ->
  optimize_raw e o img max_size = Ok (Some c) -> means pic (c_image c).
Proof.
  intros Ha Hs Hm. apply (emitted_satisfies (means pic)). intros b evs.
  exact (perform_reductions_lossless_partial e o img pic b evs Ha Hs Hm).
Qed.

Theorem optimize_raw_alpha_partial e o img max_size c pic :
  scale_16 o = false -> ameans pic img ->
  optimize_raw e o img max_size = Ok (Some c) -> ameans pic (c_image c).
Proof.
  intros Hs Hm. apply (emitted_satisfies (ameans pic)). intros b evs.
  exact (perform_reductions_alpha_partial e o img pic b evs Hs Hm).
Qed.
