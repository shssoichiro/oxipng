(* The meaning `gsem` of image data under any per-pixel colour function, and its lifting for byte-aligned data
   (C01, C03, C15): the pixel table of aligned data is `gcol` of the pixels' bits, so the meaning depends only on
   the list of pixel colours in data order - for every size, interlaced or not - and pixelwise-related images give
   one table of related pairs (rel_gsem). Also: what `cut_layout` returns; assembling commutes with a map on the
   pixels and only rearranges them. *)
From OxiVerif Require Import Base.Common Base.ListFacts Spec.Adam7 Spec.Sem Proofs.ScanProofs.
Local Open Scope nat_scope.

Lemma Forall_firstn' {A} (P : A -> Prop) n l : Forall P l -> Forall P (firstn n l).
Proof. apply Forall_firstn. Qed.

Lemma groups_is_chunks_exact {A} n (l : list A) : groups n l = chunks_exact n l.
Proof. reflexivity. Qed.

Lemma sbits_of_bytes_length l : length (sbits_of_bytes l) = length l * 8.
Proof. unfold sbits_of_bytes. induction l as [|b t IH]; cbn [flat_map length]; [reflexivity|]. rewrite app_length, IH. reflexivity. Qed.

Lemma sbits_of_bytes_concat pxs : sbits_of_bytes (concat pxs) = concat (map sbits_of_bytes pxs).
Proof. unfold sbits_of_bytes. induction pxs as [|px t IH]; cbn [concat map]; [reflexivity|]. rewrite flat_map_app, IH. reflexivity. Qed.

Lemma line_pixels_aligned (B : nat) (n : Z) (group : list (list Z)) : 0 < B ->
  Forall (fun px => length px = B) group -> length group = Z.to_nat n ->
  line_pixels (8 * Z.of_nat B) n (concat group) = map sbits_of_bytes group.
Proof.
  intros HB Hu Hn. unfold line_pixels. rewrite groups_is_chunks_exact, sbits_of_bytes_concat.
  replace (Z.to_nat (8 * Z.of_nat B)) with (B * 8) by lia.
  rewrite chunks_exact_concat; [|lia|].
  - rewrite <- Hn, <- (map_length sbits_of_bytes group). apply firstn_all.
  - apply Forall_map. eapply Forall_impl; [|exact Hu]. intros px <-. apply sbits_of_bytes_length.
Qed.

Definition pix_layout (w h : Z) (il : bool) : list (option Z * Z) :=
  if il then map (fun pn => (Some (fst pn), snd pn)) (spec_lines w h) else repeat (None, w) (Z.to_nat h).

Lemma spec_layout_pix w h bpp il :
  spec_layout w h bpp il = map (fun pn => (fst pn, snd pn, line_bytes bpp (snd pn))) (pix_layout w h il).
Proof.
  unfold spec_layout, pix_layout. destruct il.
  - rewrite map_map. reflexivity.
  - rewrite map_repeat. reflexivity.
Qed.

Lemma pix_layout_nonneg w h il : (1 <= w)%Z -> Forall (fun pn => (0 <= snd pn)%Z) (pix_layout w h il).
Proof.
  intros Hw. unfold pix_layout. destruct il.
  - apply Forall_map. eapply Forall_impl; [|exact (spec_lines_pos w h)]. cbn [snd]. lia.
  - apply Forall_forall. intros pn Hin. apply repeat_spec in Hin. subst pn. cbn [snd]. lia.
Qed.

Lemma line_bytes_aligned (B : nat) n : line_bytes (8 * Z.of_nat B) n = (n * Z.of_nat B)%Z.
Proof. unfold line_bytes, cdiv. Z.div_mod_to_equations. nia. Qed.

Lemma cut_layout_lines {X} (lay : X -> option Z * Z * Z) (T : X -> list Z) (ls : list X) :
  Forall (fun l => length (T l) = Z.to_nat (snd (lay l))) ls ->
  cut_layout (map lay ls) (concat (map T ls)) = Some (map (fun l => (fst (lay l), T l)) ls).
Proof.
  induction 1 as [|l t Hl _ IH]; cbn [cut_layout concat map]; [reflexivity|].
  destruct (lay l) as [[p n] nb]. cbn [fst snd] in *. rewrite app_length, <- Hl.
  destruct (Nat.ltb_spec (length (T l) + length (concat (map T t))) (length (T l))) as [|_]; [lia|].
  rewrite skipn_app, skipn_all, firstn_app, firstn_all, Nat.sub_diag, app_nil_r. cbn [skipn firstn app]. rewrite IH. reflexivity.
Qed.

Lemma cut_layout_shape (L : list (option Z * Z * Z)) : forall data lines, cut_layout L data = Some lines ->
  Forall2 (fun lay l => fst l = fst lay /\ length (snd l) = Z.to_nat (snd lay)) L lines /\ data = concat (map snd lines).
Proof.
  induction L as [|[[p n] nb] t IH]; intros data lines H; cbn [cut_layout] in H.
  - destruct data; [injection H as <-; split; [constructor|reflexivity]|discriminate].
  - destruct (Nat.ltb_spec (length data) (Z.to_nat nb)) as [|Hge]; [discriminate|].
    destruct (cut_layout t (skipn (Z.to_nat nb) data)) as [r|] eqn:E; [|discriminate]. injection H as <-.
    destruct (IH _ _ E) as [F D]. split.
    + constructor; [|exact F]. cbn [fst snd]. split; [reflexivity|rewrite firstn_length; lia].
    + cbn [map snd concat]. rewrite <- D. symmetry. apply firstn_skipn.
Qed.

Lemma cut_layout_length L data lines : cut_layout L data = Some lines ->
  length data = list_sum (map (fun l => Z.to_nat (snd l)) L).
Proof.
  intros H. destruct (cut_layout_shape _ _ _ H) as [F ->]. clear H.
  induction F as [|lay l t ls [_ Hl] _ IH]; [reflexivity|]. cbn [map concat]. rewrite app_length, Hl, IH. reflexivity.
Qed.

(* cutting a list of pixels into scan lines *)
Fixpoint split_px {A} (L : list (option Z * Z)) (pxs : list A) : option (list (option Z * Z * list A)) :=
  match L with
  | [] => match pxs with [] => Some [] | _ => None end
  | (p, n) :: t =>
      if length pxs <? Z.to_nat n then None
      else match split_px t (skipn (Z.to_nat n) pxs) with
           | Some r => Some ((p, n, firstn (Z.to_nat n) pxs) :: r)
           | None => None
           end
  end.

Lemma split_px_map {A B} (f : A -> B) L : forall pxs,
  split_px L (map f pxs) = option_map (map (fun l => (fst l, map f (snd l)))) (split_px L pxs).
Proof.
  induction L as [|[p n] t IH]; intros pxs; cbn [split_px].
  - destruct pxs; reflexivity.
  - rewrite map_length. destruct (length pxs <? Z.to_nat n); [reflexivity|].
    rewrite skipn_map, IH, firstn_map. destruct (split_px t (skipn (Z.to_nat n) pxs)); reflexivity.
Qed.

Lemma split_px_concat {A} L : forall (pxs : list A) lines, split_px L pxs = Some lines -> concat (map snd lines) = pxs.
Proof.
  induction L as [|[p n] t IH]; intros pxs lines H; cbn [split_px] in H.
  - destruct pxs; [injection H as <-; reflexivity|discriminate].
  - destruct (length pxs <? Z.to_nat n); [discriminate|].
    destruct (split_px t (skipn (Z.to_nat n) pxs)) as [r|] eqn:E; [|discriminate]. injection H as <-.
    cbn [map concat snd]. rewrite (IH _ _ E). apply firstn_skipn.
Qed.

(* cutting byte-aligned data into scan lines of pixels is cutting its list of pixels *)
Lemma aligned_lines (B : nat) : 0 < B -> forall L (pxs : list (list Z)),
  Forall (fun px => length px = B) pxs ->
  option_map (map (fun l => (fst l, line_pixels (8 * Z.of_nat B) (snd (fst l)) (snd l))))
    (cut_layout (map (fun pn => (fst pn, snd pn, line_bytes (8 * Z.of_nat B) (snd pn))) L) (concat pxs))
  = split_px L (map sbits_of_bytes pxs).
Proof.
  intros HB. induction L as [|[p n] t IH]; intros pxs Hu; cbn [map cut_layout split_px fst snd].
  - destruct pxs as [|[|b px] r]; [reflexivity| |reflexivity]. apply Forall_inv in Hu. cbn in Hu. lia.
  - rewrite line_bytes_aligned, (concat_length_uniform B), map_length by assumption.
    replace (Z.to_nat (n * Z.of_nat B)) with (Z.to_nat n * B) by nia.
    destruct (cut_concat_uniform B pxs Hu (Z.to_nat n)) as [-> ->].
    rewrite skipn_map, firstn_map, <- IH by apply Forall_skipn, Hu.
    destruct (Nat.ltb_spec (length pxs) (Z.to_nat n)), (Nat.ltb_spec (length pxs * B) (Z.to_nat n * B)); try nia; [reflexivity|].
    destruct (cut_layout _ (concat (skipn (Z.to_nat n) pxs))); cbn [option_map map fst snd]; [|reflexivity].
    rewrite line_pixels_aligned by (exact HB || apply Forall_firstn', Hu || rewrite firstn_length; lia). reflexivity.
Qed.

Lemma pass_rows_map {A B} (f : A -> B) p (plines : list (option Z * Z * list A)) :
  pass_rows p (map (fun l => (fst l, map f (snd l))) plines) = map (map f) (pass_rows p plines).
Proof.
  unfold pass_rows. induction plines as [|[[q n] l] t IH]; cbn [map flat_map fst snd]; [reflexivity|].
  rewrite map_app, IH. destruct q as [q|]; [destruct (q =? p)%Z|]; reflexivity.
Qed.

Lemma spec_pixel_at_map {A B} (f : A -> B) (passes : list (list (list A))) x y :
  spec_pixel_at (map (map (map f)) passes) x y = option_map f (spec_pixel_at passes x y).
Proof.
  unfold spec_pixel_at. rewrite nth_error_map. destruct (nth_error passes _) as [pass|]; cbn [option_map]; [|reflexivity].
  rewrite nth_error_map. destruct (nth_error pass _) as [row|]; cbn [option_map]; [|reflexivity].
  apply nth_error_map.
Qed.

Lemma spec_deinterlace_map {A B} (f : A -> B) w h (passes : list (list (list A))) :
  spec_deinterlace w h (map (map (map f)) passes) = option_map (map (map f)) (spec_deinterlace w h passes).
Proof.
  unfold spec_deinterlace. rewrite <- all_some_map_option_map, map_map. f_equal. apply map_ext. intros y.
  rewrite <- all_some_map_option_map, map_map. f_equal. apply map_ext. intros x. apply spec_pixel_at_map.
Qed.

Lemma assemble_map {A B} (f : A -> B) w h il (plines : list (option Z * Z * list A)) :
  assemble w h il (map (fun l => (fst l, map f (snd l))) plines) = option_map (map (map f)) (assemble w h il plines).
Proof.
  unfold assemble. destruct il.
  - rewrite <- spec_deinterlace_map. f_equal. rewrite map_map. apply map_ext. intros p. apply pass_rows_map.
  - cbn [option_map]. rewrite !map_map. reflexivity.
Qed.

Lemma spec_pixel_at_in {A} (passes : list (list (list A))) x y a :
  spec_pixel_at passes x y = Some a -> exists pass row, In pass passes /\ In row pass /\ In a row.
Proof.
  unfold spec_pixel_at. destruct (nth_error passes _) as [pass|] eqn:E1; [|discriminate].
  destruct (nth_error pass _) as [row|] eqn:E2; [|discriminate]. intros E3.
  exists pass, row. split; [|split]; eapply nth_error_In; eassumption.
Qed.

Lemma pass_rows_in {A} p (plines : list (option Z * Z * list A)) row :
  In row (pass_rows p plines) -> exists l, In l plines /\ snd l = row.
Proof.
  unfold pass_rows. intros H. apply in_flat_map in H. destruct H as [l [Hl H]]. exists l. split; [exact Hl|].
  destruct (fst (fst l)) as [q|]; [destruct (q =? p)%Z|]; cbn in H; tauto.
Qed.

(* assembling only rearranges *)
Lemma assemble_Forall {A} (P : A -> Prop) w h il (plines : list (option Z * Z * list A)) rows :
  assemble w h il plines = Some rows -> Forall (fun l => Forall P (snd l)) plines -> Forall (Forall P) rows.
Proof.
  intros H HP. rewrite Forall_forall in HP. apply Forall_forall. intros row Hrow. apply Forall_forall. intros a Ha.
  enough (exists l, In l plines /\ In a (snd l)) as (l & Hl & Hal) by exact (proj1 (Forall_forall _ _) (HP l Hl) a Hal).
  unfold assemble in H. destruct il.
  - unfold spec_deinterlace in H.
    pose proof (all_some_in _ _ H row Hrow) as H1. apply in_map_iff in H1. destruct H1 as [y [Hy _]].
    pose proof (all_some_in _ _ Hy a Ha) as H2. apply in_map_iff in H2. destruct H2 as [x [Hx _]].
    apply spec_pixel_at_in in Hx. destruct Hx as (pass & r & Hp & Hr & Har).
    apply in_map_iff in Hp. destruct Hp as [p [<- _]]. apply pass_rows_in in Hr. destruct Hr as [l [Hl <-]]. eauto.
  - injection H as <-. apply in_map_iff in Hrow. destruct Hrow as [l [<- Hl]]. eauto.
Qed.

(* picture from the list of pixel values in data order *)
Definition gcol {A} (w h : Z) (il : bool) (cols : list A) : option (list (list A)) :=
  if (w <=? 0)%Z || (h <=? 0)%Z then None else
  match split_px (pix_layout w h il) cols with
  | Some lines => assemble w h il lines
  | None => None
  end.

Lemma gcol_map {A B} (f : A -> B) w h il (cols : list A) :
  gcol w h il (map f cols) = option_map (map (map f)) (gcol w h il cols).
Proof.
  unfold gcol. destruct ((w <=? 0)%Z || (h <=? 0)%Z); [reflexivity|].
  rewrite split_px_map. destruct (split_px (pix_layout w h il) cols) as [lines|]; cbn [option_map]; [|reflexivity].
  apply assemble_map.
Qed.

Lemma gcol_Forall {A} (P : A -> Prop) w h il (cols : list A) rows :
  gcol w h il cols = Some rows -> Forall P cols -> Forall (Forall P) rows.
Proof.
  unfold gcol. destruct ((w <=? 0)%Z || (h <=? 0)%Z); [discriminate|].
  destruct (split_px (pix_layout w h il) cols) as [lines|] eqn:Es; [|discriminate]. intros H HP.
  apply (assemble_Forall P _ _ _ _ _ H). rewrite <- (split_px_concat _ _ _ Es), Forall_concat, Forall_map in HP. exact HP.
Qed.

Lemma spec_image_pixels_aligned w h il (B : nat) (pxs : list (list Z)) :
  0 < B -> Forall (fun px => length px = B) pxs ->
  spec_image_pixels w h (8 * Z.of_nat B) il (concat pxs) = gcol w h il (map sbits_of_bytes pxs).
Proof.
  intros HB Hu. unfold spec_image_pixels, gcol.
  destruct (Z.leb_spec (8 * Z.of_nat B) 0) as [Hb|_]; [lia|]. rewrite orb_false_r.
  destruct ((w <=? 0)%Z || (h <=? 0)%Z); [reflexivity|].
  rewrite <- (aligned_lines B), <- spec_layout_pix by assumption.
  destruct (cut_layout (spec_layout w h (8 * Z.of_nat B) il) (concat pxs)); reflexivity.
Qed.

Definition finish (w h : Z) (crows : option (list (list (option rgba16)))) : option picture :=
  match crows with
  | Some cr => match all_some (map all_some cr) with
               | Some px => Some {| pic_w := w; pic_h := h; pic_px := px |}
               | None => None
               end
  | None => None
  end.

Lemma finish_some_all w h crows pic : finish w h (Some crows) = Some pic -> Forall (Forall (fun o => o <> None)) crows.
Proof.
  unfold finish. destruct (all_some (map all_some crows)) as [px|] eqn:E; [|discriminate]. intros _.
  apply all_some_eq in E. apply Forall_forall. intros row Hrow.
  apply (in_map all_some) in Hrow. rewrite E in Hrow. apply in_map_iff in Hrow. destruct Hrow as [r [Hr _]].
  rewrite (all_some_eq row r) by auto. apply Forall_forall. intros o Ho. apply in_map_iff in Ho. destruct Ho as [x [<- _]]. discriminate.
Qed.

Definition pxcol (c : spec_color) (d : Z) (px : list Z) : option rgba16 := pixel_color c d (sbits_of_bytes px).

(* the meaning of image data under an arbitrary per-pixel colour function *)
Definition gsem (w h bits_pp : Z) (il : bool) (pc : list bool -> option rgba16) (data : list Z) : option picture :=
  finish w h (option_map (map (map pc)) (spec_image_pixels w h bits_pp il data)).

Lemma gsem_rows w h b il pc data :
  gsem w h b il pc data =
  match spec_image_pixels w h b il data with
  | None => None
  | Some rows =>
      match all_some (map (fun r => all_some (map pc r)) rows) with
      | Some px => Some {| pic_w := w; pic_h := h; pic_px := px |}
      | None => None
      end
  end.
Proof. unfold gsem, finish. destruct (spec_image_pixels w h b il data); cbn [option_map]; [rewrite map_map|]; reflexivity. Qed.

Lemma spec_sem_gsem w h c d il data :
  spec_sem w h c d il data = if negb (depth_legal c d) then None else gsem w h (d * spec_channels c) il (pixel_color c d) data.
Proof. rewrite gsem_rows. reflexivity. Qed.

Lemma spec_sem_scaled_gsem w h c il data :
  spec_sem_scaled w h c il data = if negb (depth_legal c 16) then None else gsem w h (16 * spec_channels c) il (pixel_color_scaled c) data.
Proof. rewrite gsem_rows. reflexivity. Qed.

(* the meaning only depends on the pixel colours, in data order *)
Lemma gsem_aligned_cols w h il pc (B : nat) (pxs : list (list Z)) :
  0 < B -> Forall (fun px => length px = B) pxs ->
  gsem w h (8 * Z.of_nat B) il pc (concat pxs) = finish w h (gcol w h il (map (fun px => pc (sbits_of_bytes px)) pxs)).
Proof. intros HB Hu. unfold gsem. rewrite spec_image_pixels_aligned, <- gcol_map, map_map by assumption. reflexivity. Qed.

Theorem samecols_gsem w h il pc pc' (B B' : nat) (pxs pxs' : list (list Z)) :
  0 < B -> 0 < B' ->
  Forall (fun px => length px = B) pxs -> Forall (fun px => length px = B') pxs' ->
  map (fun px => pc' (sbits_of_bytes px)) pxs' = map (fun px => pc (sbits_of_bytes px)) pxs ->
  gsem w h (8 * Z.of_nat B') il pc' (concat pxs') = gsem w h (8 * Z.of_nat B) il pc (concat pxs).
Proof. intros HB HB' Hu Hu' E. rewrite !gsem_aligned_cols by auto. rewrite E. reflexivity. Qed.

(* in particular, a pixel-by-pixel transformation between byte-aligned formats that keeps the meaning of
   every pixel of the image keeps the meaning of the image (any size, interlaced or not) *)
Theorem pixelwise_gsem w h il pc pc' (B B' : nat) (g : list Z -> list Z) (pxs : list (list Z)) pic :
  0 < B -> 0 < B' ->
  Forall (fun px => length px = B) pxs ->
  (forall px, In px pxs -> length (g px) = B' /\ pc' (sbits_of_bytes (g px)) = pc (sbits_of_bytes px)) ->
  gsem w h (8 * Z.of_nat B) il pc (concat pxs) = Some pic ->
  gsem w h (8 * Z.of_nat B') il pc' (concat (map g pxs)) = Some pic.
Proof.
  intros HB HB' Hu Hg <-. apply samecols_gsem; try assumption.
  - apply Forall_map, Forall_forall. intros px Hpx. apply Hg, Hpx.
  - rewrite map_map. apply map_ext_in. intros px Hpx. apply Hg, Hpx.
Qed.

(* data that means something has a whole number of pixels *)
Lemma gsem_some_length w h il pc (B : nat) data pic : 0 < B ->
  gsem w h (8 * Z.of_nat B) il pc data = Some pic -> exists k, length data = k * B.
Proof.
  intros _ H. unfold gsem, spec_image_pixels in H. destruct (_ || _); [discriminate|].
  destruct (cut_layout (spec_layout w h (8 * Z.of_nat B) il) data) as [lines|] eqn:E; [|discriminate].
  apply cut_layout_length in E. rewrite E, spec_layout_pix, map_map. cbn [snd].
  induction (pix_layout w h il) as [|pn t [k IH]]; cbn [map list_sum fold_right].
  - exists 0. reflexivity.
  - exists (Z.to_nat (snd pn) + k). unfold list_sum in IH. rewrite IH, line_bytes_aligned. nia.
Qed.

(* two byte-aligned images whose pixels are pairwise related: both meanings come from one table of
   pairs of pixel colours, every entry of which is related *)
Theorem rel_gsem (R : option rgba16 -> option rgba16 -> Prop) w h il pc pc' (B B' : nat) (pxs pxs' : list (list Z)) :
  0 < B -> 0 < B' ->
  Forall (fun px => length px = B) pxs -> Forall (fun px => length px = B') pxs' ->
  Forall2 (fun px px' => R (pc (sbits_of_bytes px)) (pc' (sbits_of_bytes px'))) pxs pxs' ->
  exists orows : option (list (list (option rgba16 * option rgba16))),
    gsem w h (8 * Z.of_nat B) il pc (concat pxs) = finish w h (option_map (map (map fst)) orows) /\
    gsem w h (8 * Z.of_nat B') il pc' (concat pxs') = finish w h (option_map (map (map snd)) orows) /\
    forall rows, orows = Some rows -> Forall (Forall (fun z => R (fst z) (snd z))) rows.
Proof.
  intros HB HB' Hu Hu' HF. apply Forall2_combine in HF. revert HF. generalize (combine pxs pxs').
  intros zs (<- & <- & HZ).
  exists (gcol w h il (map (fun z => (pc (sbits_of_bytes (fst z)), pc' (sbits_of_bytes (snd z)))) zs)).
  rewrite !gsem_aligned_cols, <- !gcol_map, !map_map by assumption. repeat split.
  intros rows Hrows. apply (gcol_Forall _ _ _ _ _ _ Hrows), Forall_map. exact HZ.
Qed.
