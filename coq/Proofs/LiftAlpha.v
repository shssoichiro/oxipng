(* C03 at image level: alpha-equivalence of pictures (same alpha everywhere, same colour wherever alpha is not zero) lifted from
   pixels to whole byte-aligned images, and the alpha-optimising variants of the reductions. *)
From OxiVerif Require Import Base.Common Base.ListFacts Spec.Sem Model.Types Model.Color Model.Palette Proofs.Bridge Proofs.PixelProofs
  Proofs.ImageLift Proofs.LiftColor Proofs.LiftPalette.

(* `orel aeq` written out: a decodable pixel stays decodable and alpha-equivalent; the lemmas about it are those of `orel` *)
Definition aequiv (c c' : option rgba16) : Prop :=
  forall p, c = Some p -> exists q, c' = Some q /\ rgba_alpha_equivb p q = true.

Definition pic_aequiv (p q : picture) : Prop := picture_alpha_equivb p q = true.

Lemma forall2b_Forall2 {A} (R : A -> A -> Prop) (f : A -> A -> bool) l l' :
  (forall a b, R a b -> f a b = true) -> Forall2 R l l' -> forall2b f l l' = true.
Proof. intros H. induction 1 as [|a b t t' Hab _ IH]; cbn [forall2b]; [reflexivity|]. rewrite (H a b Hab), IH. reflexivity. Qed.

Lemma pic_rel_aequiv p q : pic_rel aeq p q -> pic_aequiv p q.
Proof.
  intros (Hw & Hh & F). unfold pic_aequiv, picture_alpha_equivb. rewrite Hw, Hh, !Z.eqb_refl.
  apply (forall2b_Forall2 (Forall2 aeq)); [|exact F]. intros a b. apply forall2b_Forall2. auto.
Qed.

Lemma sem_aequiv img' pic :
  (exists pic', sem img' = Some pic' /\ pic_rel aeq pic pic') /\ wf img' ->
  (exists pic', sem img' = Some pic' /\ pic_aequiv pic pic') /\ wf img'.
Proof. intros [(pic' & E & R) W]. split; [exists pic'; split; [exact E|apply pic_rel_aequiv, R]|exact W]. Qed.

Theorem aequiv_gsem w h il pc pc' (B B' : nat) (pxs pxs' : list (list Z)) pic :
  (0 < B)%nat -> (0 < B')%nat ->
  Forall (fun px => length px = B) pxs -> Forall (fun px => length px = B') pxs' ->
  Forall2 (fun px px' => aequiv (pc (sbits_of_bytes px)) (pc' (sbits_of_bytes px'))) pxs pxs' ->
  gsem w h (8 * Z.of_nat B) il pc (concat pxs) = Some pic ->
  exists pic', gsem w h (8 * Z.of_nat B') il pc' (concat pxs') = Some pic' /\ pic_aequiv pic pic'.
Proof.
  intros HB HB' Hu Hu' HF Hsem.
  destruct (orel_gsem aeq w h il pc pc' B B' pxs pxs' pic HB HB' Hu Hu' HF Hsem) as (pic' & E & R).
  exists pic'. split; [exact E|apply pic_rel_aequiv, R].
Qed.

(* picture alpha-equivalence is reflexive and transitive, so it composes along the pipeline *)
Lemma forall2b_refl {A} (f : A -> A -> bool) l : (forall a, f a a = true) -> forall2b f l l = true.
Proof. intros H. induction l; cbn; [reflexivity|]. rewrite H, IHl. reflexivity. Qed.

Lemma forall2b_trans {A} (f : A -> A -> bool) : (forall a b c, f a b = true -> f b c = true -> f a c = true) ->
  forall l1 l2 l3, forall2b f l1 l2 = true -> forall2b f l2 l3 = true -> forall2b f l1 l3 = true.
Proof.
  intros Ht. induction l1 as [|a t IH]; intros [|b t2] [|c t3] H1 H2; cbn in *; try discriminate; auto.
  apply andb_true_iff in H1, H2. destruct H1, H2. apply andb_true_iff. split; eauto.
Qed.

Lemma pic_aequiv_refl p : pic_aequiv p p.
Proof.
  unfold pic_aequiv, picture_alpha_equivb. rewrite !Z.eqb_refl. cbn [andb].
  apply forall2b_refl. intros r. apply forall2b_refl. apply rgba_alpha_equivb_refl.
Qed.

Lemma pic_aequiv_trans p q r : pic_aequiv p q -> pic_aequiv q r -> pic_aequiv p r.
Proof.
  unfold pic_aequiv, picture_alpha_equivb. intros H1 H2.
  apply andb_true_iff in H1, H2. destruct H1 as [H1 F1], H2 as [H2 F2].
  apply andb_true_iff in H1, H2. destruct H1 as [W1 Hh1], H2 as [W2 Hh2]. apply Z.eqb_eq in W1, W2, Hh1, Hh2.
  rewrite W1, W2, Hh1, Hh2, !Z.eqb_refl. cbn [andb].
  eapply forall2b_trans; [|exact F1|exact F2]. intros a b c. apply forall2b_trans. apply rgba_alpha_equivb_trans.
Qed.

Lemma pixel_clean c d px : d = 8 \/ d = 16 -> has_alpha c = true -> bytes_ok px ->
  length px = (Z.to_nat (channels_per_pixel c) * bpc d)%nat ->
  all_eq 0 (skipn ((Z.to_nat (channels_per_pixel c) - 1) * bpc d) px) = true ->
  orel aeq (pxcol (spec_color_of c) d px) (pxcol (spec_color_of c) d (repeat 0 (Z.to_nat (channels_per_pixel c) * bpc d))).
Proof.
  intros Hd Ha Hok Hl Hz.
  destruct (alpha_pixel_view c d px Hd Hok Hl) as (cs & a & _ & Ea & Hn & _ & _ & Hla & Hoka & ->).
  rewrite Ea in Hz. destruct (sample_facts d a Hd Hla Hoka) as (_ & H0 & _). rewrite (H0 Hz), pxcol_repeat by (auto; lia).
  replace (key_of d 0) with 0 by (unfold key_of; destruct (d =? 16); reflexivity).
  apply orel_of_match. destruct c; try discriminate; cbn in Hn.
  - destruct cs as [|v [|? ?]]; try discriminate Hn. apply (pixel_transparent_gray_alpha d (be v) 0).
  - destruct cs as [|r [|g [|b [|? ?]]]]; try discriminate Hn. apply (pixel_transparent_rgba d (be r) (be g) (be b) 0 0 0).
Qed.

Theorem cleaned_alpha_channel_aequiv img img' pic : wf img ->
  cleaned_alpha_channel img = Some img' -> sem img = Some pic ->
  (exists pic', sem img' = Some pic' /\ pic_aequiv pic pic') /\ wf img'.
Proof.
  intros Hwf Hred Hsem. unfold cleaned_alpha_channel, channels in Hred.
  change (Z.to_nat (bytes_per_channel img)) with (bpc (depth (hdr img))) in Hred.
  rewrite colored_bytes in Hred.
  destruct (has_alpha (ctype (hdr img))) eqn:Ea; cbn [negb] in Hred; [|discriminate].
  injection Hred as <-. apply sem_aequiv.
  pose proof (legal_8_16 _ _ (sem_some_legal _ _ Hsem) (or_intror Ea)) as Hd.
  apply (channel_reduction aeq img (ctype (hdr img)) _ _ pic); auto.
  - destruct (hdr img); reflexivity.
  - destruct (ctype (hdr img)); try discriminate; reflexivity.
  - apply Hwf.
  - intros px Hin Hok Hlen. destruct (all_eq 0 _) eqn:Ez.
    + split; [apply bytes_ok_repeat; unfold byte_ok; lia|]. split; [apply repeat_length|]. apply pixel_clean; auto.
    + split; [exact Hok|]. split; [exact Hlen|]. apply orel_refl, rgba_alpha_equivb_refl.
Qed.

(* fully transparent palette entries become black, as in the optimize_alpha branch of indexed_to_channels and reduced_palette *)
Definition norm_rgba (c : rgba8) : rgba8 := let '(r, g, b, a) := c in if a =? 0 then (0, 0, 0, a) else c.

Definition norm_image (img : image) : image :=
  match ctype (hdr img) with
  | Indexed pal => {| hdr := with_ctype (hdr img) (Indexed (map norm_rgba pal)); data := data img |}
  | _ => img
  end.

Lemma norm_rgba_ok c : rgba8_ok c -> rgba8_ok (norm_rgba c).
Proof. destruct c as [[[r g] b] a]. unfold norm_rgba, rgba8_ok, byte_ok. intros H. destruct (a =? 0); lia. Qed.

Theorem norm_image_aequiv img pic : depth (hdr img) = 8 -> wf img -> sem img = Some pic ->
  (exists pic', sem (norm_image img) = Some pic' /\ pic_aequiv pic pic') /\ wf (norm_image img).
Proof.
  intros Hd Hwf Hsem. unfold norm_image.
  destruct (ctype (hdr img)) as [| |pal| |] eqn:Hc; try (split; [exists pic; split; [exact Hsem|apply pic_aequiv_refl]|exact Hwf]).
  pose proof (proj2 Hwf) as Hpal. rewrite Hc in Hpal. destruct Hpal as [Hpal Hlen].
  apply sem_aequiv, (indexed_reduction aeq img _ pal (Indexed (map norm_rgba pal)) (fun b => [b]) pic); auto.
  - symmetry. apply concat_map_singleton.
  - split; [|rewrite map_length; exact Hlen]. rewrite Forall_map. exact (Forall_impl _ norm_rgba_ok Hpal).
  - intros b _ Hb. assert (B1 : bytes_ok [b]) by (constructor; [exact Hb|constructor]).
    split; [exact B1|]. split; [reflexivity|]. rewrite pxcol8 by exact B1. cbn [spec_color_of color_of_samples]. unfold rgba8 in *.
    rewrite nth_error_map. destruct (nth_error pal (Z.to_nat b)) as [[[[r g] bl] a]|]; cbn [option_map norm_rgba]; [|intros p Hp; discriminate].
    destruct (Z.eqb_spec a 0) as [->|Hne]; [|apply orel_refl, rgba_alpha_equivb_refl].
    intros p Hp. injection Hp as <-. eexists. split; reflexivity.
Qed.

(* the alpha-optimising variants are the plain variants on the normalised image *)
Lemma indexed_to_channels_alpha img ag : indexed_to_channels img ag true = indexed_to_channels (norm_image img) ag false.
Proof.
  unfold indexed_to_channels, norm_image. destruct (ctype (hdr img)) as [| |pal| |] eqn:Hc; try (rewrite ?Hc; reflexivity).
Qed.

Lemma condense_alpha pal : forall used i set bm dc,
  condense used i pal true set bm dc = condense used i (map norm_rgba pal) false set bm dc.
Proof.
  induction used as [|u t IH]; intros i set bm dc; cbn [condense]; [reflexivity|].
  destruct (negb u); [apply IH|].
  assert (E : add_color_to_set (nth (Z.to_nat i) pal black) set true = add_color_to_set (nth (Z.to_nat i) (map norm_rgba pal) black) set false).
  { change black with (norm_rgba black) at 2. rewrite map_nth. unfold add_color_to_set.
    destruct (nth (Z.to_nat i) pal black) as [[[r g] b] a]. cbn [norm_rgba andb]. destruct (a =? 0); reflexivity. }
  rewrite E. destruct (add_color_to_set _ set false) as [idx set']. apply IH.
Qed.

Lemma reduced_palette_alpha img : reduced_palette img true = reduced_palette (norm_image img) false.
Proof.
  unfold reduced_palette, norm_image. destruct (ctype (hdr img)) as [| |pal| |] eqn:Hc; try (rewrite ?Hc; reflexivity).
  cbn [hdr ctype depth with_ctype data]. rewrite condense_alpha, map_length. reflexivity.
Qed.

Lemma depth_norm_image img : depth (hdr (norm_image img)) = depth (hdr img).
Proof. unfold norm_image. destruct (ctype (hdr img)); reflexivity. Qed.

Lemma indexed_to_channels_depth img ag oa img' : indexed_to_channels img ag oa = Some img' -> depth (hdr img) = 8.
Proof. unfold indexed_to_channels. destruct (Z.eqb_spec (depth (hdr img)) 8); [auto|discriminate]. Qed.

Lemma reduced_palette_depth img oa img' : reduced_palette img oa = Some img' -> depth (hdr img) = 8.
Proof. unfold reduced_palette. destruct (Z.eqb_spec (depth (hdr img)) 8); [auto|discriminate]. Qed.

(* an exact step of an image of depth 8, run on the normalised image *)
Lemma after_norm_image (step : image -> option image) img img' pic :
  (forall i, step i = Some img' -> depth (hdr i) = 8) ->
  (forall i p, wf i -> step i = Some img' -> sem i = Some p -> sem img' = Some p /\ wf img') ->
  wf img -> step (norm_image img) = Some img' -> sem img = Some pic ->
  (exists pic', sem img' = Some pic' /\ pic_aequiv pic pic') /\ wf img'.
Proof.
  intros Hdepth Hstep Hwf Hred Hsem. pose proof (Hdepth _ Hred) as Hd. rewrite depth_norm_image in Hd.
  destruct (norm_image_aequiv img pic Hd Hwf Hsem) as [(pic1 & S1 & A1) W1].
  destruct (Hstep _ _ W1 Hred S1) as [S2 W2]. split; [exists pic1; auto|exact W2].
Qed.

Theorem indexed_to_channels_aequiv img img' ag pic : wf img ->
  indexed_to_channels img ag true = Some img' -> sem img = Some pic ->
  (exists pic', sem img' = Some pic' /\ pic_aequiv pic pic') /\ wf img'.
Proof.
  intros Hwf Hred. rewrite indexed_to_channels_alpha in Hred.
  apply (after_norm_image (fun i => indexed_to_channels i ag false) img img' pic); auto.
  - intros i. apply indexed_to_channels_depth.
  - intros i p. apply indexed_to_channels_sem.
Qed.

Theorem reduced_palette_aequiv img img' pic : wf img ->
  reduced_palette img true = Some img' -> sem img = Some pic ->
  (exists pic', sem img' = Some pic' /\ pic_aequiv pic pic') /\ wf img'.
Proof.
  intros Hwf Hred. rewrite reduced_palette_alpha in Hred.
  apply (after_norm_image (fun i => reduced_palette i false) img img' pic); auto.
  - intros i. apply reduced_palette_depth.
  - intros i p. apply reduced_palette_sem.
Qed.

Theorem reduced_alpha_channel_aequiv img img' pic : wf img ->
  reduced_alpha_channel img true = Some img' -> sem img = Some pic ->
  (exists pic', sem img' = Some pic' /\ pic_aequiv pic pic') /\ wf img'.
Proof. intros Hwf Hred Hsem. apply sem_aequiv. exact (reduced_alpha_channel_rel img true img' pic Hwf Hred Hsem). Qed.
