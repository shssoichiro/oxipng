(* battiato_reindex over the complete edge list returns every palette index exactly once: the state invariant binv, the three joining
   branches of battiato_step as instances of cinv_join, the step, the loop with its early exit, and the final argument (a red end of
   chain 0 is linked to every other vertex). *)
From OxiVerif Require Import Base.Common Base.ListFacts Model.Palette.
From OxiVerif Require Import Proofs.BattiatoTable Proofs.BattiatoSteps.
From Coq Require Import Permutation.
Local Open Scope Z_scope.

Definition binv (n : nat) (s : bstate) (done : list (Z * Z)) : Prop :=
  length (b_vx s) = n /\ cinv (Z.of_nat n) (b_chains s) (stt (b_vx s)) (chn (b_vx s)) done.

(* In each branch the table after the step has one more at both ends of the edge and the number K on the moved vertices, and chain K is
   a permutation of the two components. cinv_join leaves seven goals, in this order: the degrees; the chain numbers on the joined
   component; off it; chain K; the other chains; K is the smallest number involved; the pair put into the history. *)
Section Steps.
Variables (n : nat) (chains : list (list Z)) (vx : list (Z * Z)) (done : list (Z * Z)).
Hypotheses (L : length vx = n) (I : cinv (Z.of_nat n) chains (stt vx) (chn vx) done).

(* both ends white: a chain of the two is appended *)
Lemma step_new_chain i j : 0 <= i < Z.of_nat n -> 0 <= j < Z.of_nat n -> i <> j -> stt vx i = 0 -> stt vx j = 0 ->
  binv n {| b_chains := chains ++ [[i; j]]; b_vx := vx_set (vx_set vx i (1, lenZ chains)) j (1, lenZ chains) |} ((i, j) :: done).
Proof.
  intros Ri Rj Hij Wi Wj. assert (L1 : length (vx_set vx i (1, lenZ chains)) = n) by (rewrite vx_set_length; exact L).
  split; cbn [b_chains b_vx]; [rewrite vx_set_length; exact L1|].
  apply (cinv_join I i j (lenZ chains) Ri Rj Hij ltac:(lia) ltac:(lia)); unfold comp; rewrite ?Wi, ?Wj; cbn [Z.eqb app].
  - intros v Rv. rewrite 2!stt_vx_set by lia. cbn [fst]. destruct (Z.eq_dec v j), (Z.eq_dec v i); subst; lia.
  - intros v Rv Hv. rewrite 2!chn_vx_set by lia. cbn [snd].
    destruct (Z.eq_dec v j), (Z.eq_dec v i); try reflexivity. destruct Hv as [E|[E|[]]]; congruence.
  - intros v Rv Hv. rewrite 2!chn_vx_set by lia.
    destruct (Z.eq_dec v j) as [->|]; [destruct Hv; right; left; reflexivity|]. destruct (Z.eq_dec v i) as [->|]; [destruct Hv; left; reflexivity|reflexivity].
  - unfold nthZ, lenZ. rewrite Nat2Z.id, nth_middle. reflexivity.
  - intros k Hk. left. split; [apply nth_snoc_other; unfold lenZ in Hk; lia|lia].
  - lia.
  - left. reflexivity.
Qed.

(* a white vertex w joins the chain of a red vertex r, at the end where r is *)
Lemma step_attach w r (front : bool) pr : 0 <= w < Z.of_nat n -> 0 <= r < Z.of_nat n -> stt vx w = 0 -> stt vx r = 1 ->
  pr = (w, r) \/ pr = (r, w) -> let chain := nthZ chains (chn vx r) [] in
  binv n {| b_chains := set_nth (Z.to_nat (chn vx r)) (if front then w :: chain else chain ++ [w]) chains;
            b_vx := set_state (vx_set vx w (1, chn vx r)) r 2 |} (pr :: done).
Proof.
  intros Rw Rr Ww Sr Hpr chain. assert (L1 : length (vx_set vx w (1, chn vx r)) = n) by (rewrite vx_set_length; exact L).
  split; cbn [b_chains b_vx]; [unfold set_state; rewrite vx_set_length; exact L1|]. pose proof (c_idx I r Rr ltac:(lia)) as Xr. unfold lenZ in Xr.
  apply (cinv_join I w r (chn vx r) Rw Rr ltac:(intros ->; lia) ltac:(lia) ltac:(lia)); unfold comp; rewrite ?Ww, ?Sr; cbn [Z.eqb app].
  - intros v Rv. rewrite stt_set_state, stt_vx_set by lia. cbn [fst]. destruct (Z.eq_dec v r), (Z.eq_dec v w); subst; lia.
  - intros v Rv Hv. rewrite chn_set_state, chn_vx_set by lia. destruct (Z.eq_dec v w) as [|Hne]; [reflexivity|].
    destruct Hv as [E|Hv]; [congruence|]. unfold nthZ in Hv. apply (c_of I) in Hv. lia.
  - intros v Rv Hv. rewrite chn_set_state, chn_vx_set by lia. destruct (Z.eq_dec v w) as [->|]; [destruct Hv; left; reflexivity|reflexivity].
  - unfold nthZ at 1. rewrite nth_set_nth_same by lia. destruct front; [reflexivity|apply Permutation_sym, Permutation_cons_append].
  - intros k Hk. left. split; [apply nth_set_nth_other; lia|lia].
  - lia.
  - exact Hpr.
Qed.

(* two red vertices of different chains: the chain with the larger number is emptied into the other, so that a and b meet
   (the names are those of battiato_step; ea, eb: the chain has its end a, b in front) *)
Lemma step_merge i j a b (ea eb : bool) : (i, j) = (a, b) \/ (i, j) = (b, a) ->
  0 <= a < Z.of_nat n -> 0 <= b < Z.of_nat n -> stt vx a = 1 -> stt vx b = 1 -> chn vx a < chn vx b ->
  let vx1 := set_state (set_state vx i 2) j 2 in
  let ca := chn vx1 a in let cb := chn vx1 b in
  let chainb := nthZ chains cb [] in let chains1 := set_nth (Z.to_nat cb) [] chains in let chaina := nthZ chains1 ca [] in
  let chaina' := if ea && eb then rev chainb ++ chaina else if ea then chainb ++ chaina else if eb then chaina ++ chainb else chaina ++ rev chainb in
  binv n {| b_chains := set_nth (Z.to_nat ca) chaina' chains1; b_vx := fold_left (fun t v => set_chain t v ca) chainb vx1 |} ((i, j) :: done).
Proof.
  intros Hpr Ra Rb Sa Sb Hlt vx1.
  assert (F1 : length vx1 = n /\ forall v, 0 <= v ->
            stt vx1 v = stt vx v + (if Z.eq_dec v a then 1 else 0) + (if Z.eq_dec v b then 1 else 0) /\ chn vx1 v = chn vx v).
  { unfold vx1. destruct Hpr as [[= -> ->]|[= -> ->]]; (split; [unfold set_state; rewrite !vx_set_length; exact L|]); intros v Hv;
      rewrite !stt_set_state, !chn_set_state by (unfold set_state; rewrite ?vx_set_length; lia);
      (split; [|reflexivity]); destruct (Z.eq_dec v a), (Z.eq_dec v b); subst; lia. }
  destruct F1 as [L1 F1]. rewrite (proj2 (F1 a ltac:(lia))), (proj2 (F1 b ltac:(lia))). cbv zeta.
  pose proof (c_idx I a Ra ltac:(lia)) as Xa. pose proof (c_idx I b Rb ltac:(lia)) as Xb. unfold lenZ in Xa, Xb.
  replace (nthZ (set_nth (Z.to_nat (chn vx b)) [] chains) (chn vx a) []) with (nthZ chains (chn vx a) []) by (symmetry; apply nth_set_nth_other; lia).
  set (chaina := nthZ chains (chn vx a) []). set (chainb := nthZ chains (chn vx b) []).
  destruct (fold_set_chain (chn vx a) chainb vx1) as [L2 F2].
  { intros v Hv. unfold chainb, nthZ in Hv. apply (c_of I) in Hv. lia. }
  split; cbn [b_chains b_vx]; [rewrite L2; exact L1|].
  apply (cinv_join I a b (chn vx a) Ra Rb ltac:(intros ->; lia) ltac:(lia) ltac:(lia)); unfold comp; rewrite ?Sa, ?Sb; cbn [Z.eqb]; fold chaina chainb.
  - intros v Rv. destruct (F2 v) as [-> _]; [lia|]. apply F1. lia.
  - intros v Rv Hv. destruct (F2 v) as [_ ->]; [lia|]. destruct (in_dec Z.eq_dec v chainb) as [|Hn]; [reflexivity|]. destruct (F1 v) as [_ ->]; [lia|].
    apply in_app_or in Hv. destruct Hv as [Hv|Hv]; [|contradiction]. unfold chaina, nthZ in Hv. apply (c_of I) in Hv. lia.
  - intros v Rv Hv. destruct (F2 v) as [_ ->]; [lia|]. destruct (in_dec Z.eq_dec v chainb) as [Hb|_]; [destruct Hv; apply in_or_app; right; exact Hb|]. apply F1. lia.
  - unfold nthZ at 1. rewrite nth_set_nth_same by (rewrite set_nth_length; lia).
    destruct ea, eb; cbn [andb]; [rewrite <- Permutation_rev; apply Permutation_app_comm|apply Permutation_app_comm|reflexivity|].
    rewrite <- Permutation_rev. reflexivity.
  - intros k Hk. rewrite nth_set_nth_other by lia. destruct (Nat.eq_dec k (Z.to_nat (chn vx b))) as [->|Nk].
    + right. split; [apply nth_set_nth_same; lia|lia].
    + left. split; [apply nth_set_nth_other; exact Nk|lia].
  - lia.
  - exact Hpr.
Qed.
End Steps.

Lemma battiato_step_inv n s done i j s' : binv n s done -> 0 <= i < Z.of_nat n -> 0 <= j < Z.of_nat n -> i <> j ->
  battiato_step s (i, j) = Ok s' -> binv n s' ((i, j) :: done).
Proof.
  intros [L I] Ri Rj Hij H. unfold battiato_step, vx_get in H.
  fold (stt (b_vx s) i) (stt (b_vx s) j) (chn (b_vx s) i) (chn (b_vx s) j) in H.
  set (vx := b_vx s) in *. set (chains := b_chains s) in *.
  (* ends in one chain already, or an interior end: the step changes nothing *)
  assert (Hskip : link (stt vx) (chn vx) i j -> Ok s = Ok s' -> binv n s' ((i, j) :: done)).
  { intros Hl [= <-]. split; [exact L|exact (cinv_skip I Ri Rj Hl)]. }
  unfold link in Hskip.
  destruct (c_st I i Ri) as [Si|[Si|Si]], (c_st I j Rj) as [Sj|[Sj|Sj]]; rewrite Si, Sj in H; cbn [Z.eqb Pos.eqb andb] in H;
    try (apply Hskip; [lia|exact H]).
  - (* both white *) injection H as <-. apply step_new_chain; assumption.
  - (* i white, j red *) destruct (chain_head (nthZ chains (chn vx j) [])) as [hd|]; [|discriminate]. injection H as <-.
    apply step_attach; auto.
  - (* i red, j white *) destruct (chain_head (nthZ chains (chn vx i) [])) as [hd|]; [|discriminate]. injection H as <-.
    apply step_attach; auto.
  - (* both red *) destruct (Z.eqb_spec (chn vx i) (chn vx j)) as [Ec|Nc]; cbn [negb] in H; [apply Hskip; [lia|exact H]|].
    (* the chain with the smaller number survives *)
    assert (Hab : exists a b, (if chn vx i <? chn vx j then (i, j) else (j, i)) = (a, b) /\ ((i, j) = (a, b) \/ (i, j) = (b, a)) /\
              0 <= a < Z.of_nat n /\ 0 <= b < Z.of_nat n /\ stt vx a = 1 /\ stt vx b = 1 /\ chn vx a < chn vx b).
    { destruct (Z.ltb_spec (chn vx i) (chn vx j)); [exists i, j|exists j, i]; repeat split; auto; lia. }
    destruct Hab as (a & b & Eab & Hpr & Ra & Rb & Sa & Sb & Hlt). rewrite Eab in H. cbv beta iota in H.
    destruct (chain_head (nthZ (set_nth _ [] chains) _ [])) as [ha|]; [|discriminate].
    destruct (chain_head (nthZ chains _ [])) as [hb|]; [|discriminate]. injection H as <-.
    apply (step_merge n chains vx done L I i j a b); auto.
Qed.

(* The loop stops early once chain 0 has n members; otherwise every edge ends up in the history. *)
Lemma battiato_loop_inv n : forall edges s done sf, binv n s done ->
  (forall a b, In (a, b) edges -> 0 <= a < b /\ b < Z.of_nat n) ->
  battiato_loop n s edges = Ok sf ->
  exists done', binv n sf done' /\ ((exists c0 rest, b_chains sf = c0 :: rest /\ length c0 = n) \/ done' = rev edges ++ done).
Proof.
  induction edges as [|[i j] t IH]; intros s done sf I He H; cbn [battiato_loop] in H.
  - injection H as <-. exists done. split; [exact I|]. right. reflexivity.
  - apply bind_Ok in H as (s1 & Es & H).
    pose proof (He i j (or_introl eq_refl)) as Hij. apply (battiato_step_inv n s done i j s1 I) in Es; [|lia..].
    destruct (b_chains s1) as [|c0 rest] eqn:Ec; [discriminate|].
    destruct (Nat.eqb_spec (length c0) n) as [El|Nl].
    + injection H as <-. exists ((i, j) :: done). split; [exact Es|]. left. exists c0, rest. split; assumption.
    + destruct (IH s1 ((i, j) :: done) sf Es) as (done' & I' & Hres); [intros a b Hab; apply He; right; exact Hab|exact H|].
      exists done'. split; [exact I'|]. destruct Hres as [Hearly| ->]; [left; exact Hearly|right].
      cbn [rev]. rewrite <- app_assoc. reflexivity.
Qed.

Lemma binv_init n : binv n {| b_chains := []; b_vx := repeat (0, 0) n |} [].
Proof.
  assert (S0 : forall v, stt (repeat (0, 0) n) v = 0) by (intros v; unfold stt, nthZ; rewrite nth_repeat; reflexivity).
  split; [apply repeat_length|]. constructor; cbn [b_chains b_vx].
  - intros v _ H. rewrite S0 in H. lia.
  - intros k v H. destruct k; destruct H.
  - intros k. destruct k; constructor.
  - intros k H. destruct k; destruct H; reflexivity.
  - intros v _. rewrite S0. lia.
  - reflexivity.
  - intros a b [].
Qed.

Lemma chain_red {N chains st ch done} k : cinv N chains st ch done -> nth k chains [] <> [] ->
  exists r, In r (nth k chains []) /\ st r = 1.
Proof.
  intros I Hne. destruct (slack_pos st (nth k chains [])) as (r & Hr & Sr); [rewrite (c_slack I k Hne); lia|].
  exists r. split; [exact Hr|]. apply (c_of I) in Hr. lia.
Qed.

Lemma cinv_complete {N chains st ch done} : cinv N chains st ch done -> chains <> [] ->
  (forall a b, 0 <= a < b -> b < N -> In (a, b) done) -> forall v, 0 <= v < N -> In v (nth 0 chains []).
Proof.
  intros I Hne Hall.
  assert (Hpair : forall a b, 0 <= a < N -> 0 <= b < N -> a <> b -> link st ch a b).
  { intros a b Ra Rb Hab. destruct (Z_lt_dec a b); [apply (c_hist I), Hall; lia|].
    destruct (c_hist I b a) as (_ & _ & Hl); [apply Hall; lia|]. unfold link in *. lia. }
  destruct (chain_red 0%nat I) as (r0 & Hr0 & Sr0); [intros E; apply Hne, (c_first I E)|].
  apply (c_of I) in Hr0. destruct Hr0 as (Rr0 & _ & Cr0).
  (* r0 is not interior, so every other vertex is coloured, and every other red vertex is in the chain of r0 *)
  assert (Hr : forall v, 0 <= v < N -> 1 <= st v /\ (st v = 1 -> ch v = 0)).
  { intros v Rv. destruct (Z.eq_dec v r0) as [->|Hv]; [lia|]. pose proof (Hpair v r0 Rv Rr0 Hv) as Hl. unfold link in Hl. lia. }
  (* the chain of v has a red member *)
  intros v Rv. pose proof (c_in I v Rv (proj1 (Hr v Rv))) as Hin. unfold nthZ in Hin.
  destruct (chain_red (Z.to_nat (ch v)) I) as (r & Hrin & Sr); [intros E; rewrite E in Hin; destruct Hin|].
  apply (c_of I) in Hrin. destruct Hrin as (Rr & _ & Cr). pose proof (proj2 (Hr r Rr) Sr).
  replace 0%nat with (Z.to_nat (ch v)) by lia. exact Hin.
Qed.

Theorem battiato_all_indices n edges c0 : (2 <= n)%nat ->
  (forall a b, In (a, b) edges <-> 0 <= a < b /\ b < Z.of_nat n) ->
  battiato_reindex n edges = Ok c0 ->
  NoDup c0 /\ (length c0 <= n)%nat /\ forall v, 0 <= v < Z.of_nat n -> In v c0.
Proof.
  intros Hn Hedges H. unfold battiato_reindex in H.
  apply bind_Ok in H as (sf & El & H).
  destruct (battiato_loop_inv n edges _ [] sf (binv_init n) ltac:(intros a b; apply Hedges) El) as (done' & [_ I] & Hres).
  destruct (b_chains sf) as [|c rest] eqn:Ec; [discriminate|]. injection H as <-.
  pose proof (c_nodup I 0) as Hnd. cbn [nth] in Hnd.
  destruct (nodup_full c n Hnd) as [Hle Hfull]; [intros x; apply (c_of I 0%nat)|].
  split; [exact Hnd|]. split; [exact Hle|].
  destruct Hres as [(c' & rest' & [= <- <-] & Hlen)| ->]; [apply Hfull; exact Hlen|].
  apply (cinv_complete I); [discriminate|]. intros a b Hab Hb. apply in_or_app. left. apply -> in_rev. apply Hedges. lia.
Qed.
