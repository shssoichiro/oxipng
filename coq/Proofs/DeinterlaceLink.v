(* The cells that the de-interlacing state machine leaves (DeinterlaceStep.model_deinterlace_cells) are the pixels that
   spec_deinterlace reads from the same pass lines. *)
From OxiVerif Require Import Base.Common Base.ListFacts Spec.Adam7 Model.Interlace Proofs.Adam7RoundTrip Proofs.DeinterlaceCore
  Proofs.DeinterlaceStep.
Local Open Scope Z_scope.

Section Link.
Context {A : Type}.
Variable blank : A.
Variables w h : Z.
Variable limit : bool.
Hypothesis Hw : 1 <= w.
Hypothesis Hh : 1 <= h.
Variable blk : Z -> list (list A).
Hypothesis Hblk : forall p, In p passes7 -> active w h p ->
  length (blk p) = Z.to_nat (ph h p) /\ Forall (line_ok w limit p) (blk p).
Hypothesis Hblk0 : forall p, In p passes7 -> ~ active w h p -> blk p = [].

Theorem model_deinterlace_is_spec :
  exists G, model_deinterlace blank w h limit (flat_map blk passes7) = Ok G /\
    spec_deinterlace w h (map (fun p => map (eff w limit p) (blk p)) passes7) = Some G /\
    length G = Z.to_nat h /\ Forall (fun r => length r = Z.to_nat w) G.
Proof.
  destruct (model_deinterlace_cells blank w h limit Hw Hh blk Hblk Hblk0) as (G & E & L & F & C).
  exists G. split; [exact E|]. split; [|split; assumption].
  apply spec_deinterlace_grid; [exact L|exact F|]. intros x y Hx Hy. fold (cell G x y).
  rewrite (C x y Hx Hy). unfold spec_pixel_at, src. cbv zeta.
  destruct (pixel_index w h x y Hx Hy) as (Hq & Hact & (Hix & _) & (Hjy & _)).
  set (q := pass_of x y) in *.
  destruct (Hblk q Hq Hact) as [Hbl Hbf].
  rewrite (nth_error_passes (fun p => map (eff w limit p) (blk p)) q Hq), nth_error_map.
  assert (Hjl : (Z.to_nat ((y - y0 q) / dy q) < length (blk q))%nat) by (rewrite Hbl; lia).
  rewrite (nth_error_nth' (blk q) [] Hjl). cbn [option_map].
  apply nth_error_nth'. rewrite eff_length; [lia|]. rewrite Forall_forall in Hbf. apply Hbf, nth_In, Hjl.
Qed.
End Link.
