(* The command line (C09). Against the manual (constants parsed from MANUAL.txt): the preset rows and the
   default. On the model: the option value of a successful parse as one record over the flags
   (`cli_options_from_Ok`) and what follows for --nx, the switches, explicit settings and strip; the exit
   status; the routing of the output; which files a directory argument yields. *)
From OxiVerif Require Import Base.Common Model.Types Model.Options Model.Cli.

Definition manual_row (l : Z) : option (Z * option (list Z) * bool) :=
  match List.find (fun r => fst r =? l) SrcConsts.manual_presets with Some r => Some (snd r) | None => None end.

Fixpoint insert_Z (x : Z) (l : list Z) : list Z :=
  match l with [] => [x] | a :: t => if x <=? a then x :: l else a :: insert_Z x t end.
Definition sortZ (l : list Z) : list Z := fold_right insert_Z [] l.

(* the observable content of an option value (filters as a set) *)
Definition opts_view (o : options) :=
  (sortZ (map filter_code (filter o)), deflate o, fast_evaluation o,
   (interlace o, optimize_alpha o, bit_depth_reduction o, color_type_reduction o, palette_reduction o,
    grayscale_reduction o, idat_recoding o, scale_16 o, force o, fix_errors o, has_timeout o)).

Definition interp_row (r : Z * option (list Z) * bool) : options :=
  let '(zc, fs, fast) := r in
  set_fast (set_deflate (set_filter default_options
     (match fs with Some l => filters_of_codes l [] | None => [] end)) (Libdeflater zc)) fast.

(* every row of the manual's table is what Options::from_preset does *)
Theorem preset_rows : forall l, In l [0; 1; 2; 3; 4; 5; 6] ->
  exists r, manual_row l = Some r /\ opts_view (from_preset l) = opts_view (interp_row r).
Proof.
  intros l Hl. cbn in Hl.
  destruct Hl as [<-|[<-|[<-|[<-|[<-|[<-|[<-|[]]]]]]]]; eexists; (split; [reflexivity|vm_compute; reflexivity]).
Qed.

Theorem default_is_documented :
  SrcConsts.manual_default_level = 2 /\ opts_view default_options = opts_view (from_preset 2) /\
  (SrcConsts.manual_default_interlace_is_zero = true -> interlace default_options = Some false).
Proof. vm_compute. auto. Qed.

Definition no_flags : flags := {|
  fl_opt := None; fl_filters := None; fl_timeout := None; fl_alpha := false; fl_scale16 := false; fl_fast := false;
  fl_force := false; fl_fix := false; fl_nb := false; fl_nc := false; fl_np := false; fl_ng := false; fl_nx := false;
  fl_nz := false; fl_interlace := None; fl_keep := None; fl_strip := None; fl_strip_safe := false;
  fl_zopfli := false; fl_zi := 15; fl_zc := None |}.

Theorem no_flags_is_default : cli_options no_flags = Ok default_options.
Proof. reflexivity. Qed.

(* -o as a Z literal is a sign and then the bits of a positive, three deep here; no -o is level 2,
   "max" and every level above 5 is level 6 *)
Lemma preset_of_cases (P : options -> Prop) :
  P (from_preset 0) -> P (from_preset 1) -> P (from_preset 2) -> P (from_preset 3) -> P (from_preset 4) ->
  P (from_preset 5) -> P (from_preset 6) -> forall f, P (preset_of f).
Proof.
  intros H0 H1 H2 H3 H4 H5 H6 f. unfold preset_of.
  destruct (fl_opt f) as [[|[[[p|p|]|[p|p|]|]|[[p|p|]|[p|p|]|]|]|p]|]; assumption.
Qed.

Lemma preset_deflate f : exists c, deflate (preset_of f) = Libdeflater c.
Proof. apply (preset_of_cases (fun o => exists c, deflate o = Libdeflater c)); eexists; reflexivity. Qed.

(* Every stage writes the fields of its flag and copies the rest, so a successful parse is one record
   over the flags and the starting value. The order of the stages shows only where two flags meet in
   one field: -i after --nx, --strip after --keep, -s after --strip, --zc after -Z. *)
Lemma cli_options_from_Ok base f o : cli_options_from base f = Ok o ->
  o = {| fix_errors := fl_fix f; force := fl_force f;
         filter := match fl_filters f with Some l => filters_of_codes l [] | None => filter base end;
         interlace := match fl_interlace f with Some v => v | None => if fl_nx f then None else interlace base end;
         optimize_alpha := fl_alpha f;
         bit_depth_reduction := if fl_nx f then false else negb (fl_nb f);
         color_type_reduction := if fl_nx f then false else negb (fl_nc f);
         palette_reduction := if fl_nx f then false else negb (fl_np f);
         grayscale_reduction := if fl_nx f then false else negb (fl_ng f);
         idat_recoding := negb (fl_nz f); scale_16 := fl_scale16 f;
         strip := if fl_strip_safe f then StripSafe else
                  match fl_strip f with
                  | Some SaSafe => StripSafe
                  | Some SaAll => StripAll
                  | Some (SaList names) => StripStrip (names_insert [] names)
                  | None => match fl_keep f with Some items => StripKeep (keep_names items) | None => strip base end
                  end;
         deflate := (let d := if fl_zopfli f then Zopfli (fl_zi f) else deflate base in
                     match fl_zc f, d with Some x, Libdeflater _ => Libdeflater x | _, _ => d end);
         fast_evaluation := if fl_fast f then true else fast_evaluation base;
         has_timeout := match fl_timeout f with Some _ => true | None => has_timeout base end |}.
Proof.
  unfold cli_options_from, stage_strip.
  destruct (fl_strip f) as [[| |names]|]; [| |destruct (existsb _ names); [discriminate|]|];
    cbn [bind]; intros [= <-]; reflexivity.
Qed.

(* '--nx' switches all four reductions off and implies keep-interlacing unless -i is given *)
Theorem nx_implies_keep f o : cli_options f = Ok o -> fl_nx f = true ->
  bit_depth_reduction o = false /\ color_type_reduction o = false /\ palette_reduction o = false /\
  grayscale_reduction o = false /\ (fl_interlace f = None -> interlace o = None).
Proof.
  unfold cli_options. intros ->%cli_options_from_Ok Hnx. cbn. rewrite Hnx. repeat split. intros ->. reflexivity.
Qed.

Theorem switches_spec f o : cli_options f = Ok o ->
  optimize_alpha o = fl_alpha f /\ scale_16 o = fl_scale16 f /\ force o = fl_force f /\ fix_errors o = fl_fix f /\
  idat_recoding o = negb (fl_nz f) /\
  (fl_nx f = false -> bit_depth_reduction o = negb (fl_nb f) /\ color_type_reduction o = negb (fl_nc f) /\
                      palette_reduction o = negb (fl_np f) /\ grayscale_reduction o = negb (fl_ng f)) /\
  (forall v, fl_interlace f = Some v -> interlace o = v) /\
  (fl_fast f = true -> fast_evaluation o = true) /\
  (fl_timeout f = None -> has_timeout o = has_timeout (preset_of f)) /\ (fl_timeout f <> None -> has_timeout o = true).
Proof.
  unfold cli_options. intros ->%cli_options_from_Ok. cbn. repeat (split; [reflexivity|]).
  split; [intros ->; repeat split|]. split; [intros v ->; reflexivity|].
  split; [intros ->; reflexivity|]. split; [intros ->; reflexivity|].
  destruct (fl_timeout f); [reflexivity|congruence].
Qed.

(* explicit settings override the preset whatever the preset is; what is not given comes from the
   preset (the flags are a record: order of appearance on the command line cannot matter) *)
Theorem explicit_overrides_preset f o : cli_options f = Ok o ->
  (forall x, fl_zc f = Some x -> fl_zopfli f = false -> deflate o = Libdeflater x) /\
  (fl_zc f = None -> fl_zopfli f = false -> deflate o = deflate (preset_of f)) /\
  (fl_zopfli f = true -> deflate o = Zopfli (fl_zi f)) /\
  (forall l, fl_filters f = Some l -> filter o = filters_of_codes l []) /\
  (fl_filters f = None -> filter o = filter (preset_of f)) /\
  (fl_fast f = false -> fast_evaluation o = fast_evaluation (preset_of f)).
Proof.
  unfold cli_options. intros ->%cli_options_from_Ok. cbn. repeat split.
  - intros x -> ->. destruct (preset_deflate f) as [c ->]. reflexivity.
  - intros -> ->. reflexivity.
  - intros ->. destruct (fl_zc f); reflexivity.
  - intros l ->. reflexivity.
  - intros ->. reflexivity.
  - intros ->. reflexivity.
Qed.

Theorem strip_spec f o : cli_options f = Ok o ->
  (fl_strip_safe f = true -> strip o = StripSafe) /\
  (fl_strip_safe f = false -> fl_strip f = Some SaSafe -> strip o = StripSafe) /\
  (fl_strip_safe f = false -> fl_strip f = Some SaAll -> strip o = StripAll) /\
  (fl_strip_safe f = false -> fl_strip f = None -> fl_keep f = None -> strip o = strip (preset_of f)).
Proof.
  unfold cli_options. intros ->%cli_options_from_Ok. cbn. repeat split.
  - intros ->. reflexivity.
  - intros -> ->. reflexivity.
  - intros -> ->. reflexivity.
  - intros -> -> ->. reflexivity.
Qed.

(* a list that names a chunk which may not be stripped is refused *)
Theorem forbidden_strip_refused f names : fl_strip f = Some (SaList names) ->
  existsb (fun n => existsb (cname_eqb n) FORBIDDEN_CHUNKS) names = true -> cli_options f = Err EOther.
Proof. intros Hs Hf. unfold cli_options, cli_options_from, stage_strip. rewrite Hs, Hf. reflexivity. Qed.

Definition has_r (r : opt_result) (rs : list opt_result) := existsb (fun x => rs_rank x =? rs_rank r) rs.

Lemma has_r_In r rs : has_r r rs = true <-> In r rs.
Proof.
  unfold has_r. rewrite existsb_exists. split.
  - intros [x [Hx E]]. destruct x, r; try discriminate; exact Hx.
  - intros H. exists r. rewrite Z.eqb_refl. auto.
Qed.

(* the running minimum, in closed form *)
Lemma summary_go rs : forall a,
  fold_left (fun a b => if rs_rank b <? rs_rank a then b else a) rs a =
  if has_r RsOk (a :: rs) then RsOk else if has_r RsFailed (a :: rs) then RsFailed else RsSkipped.
Proof.
  induction rs as [|r t IH]; intros a; cbn [fold_left].
  - destruct a; reflexivity.
  - rewrite IH. unfold has_r. destruct a, r; cbn; try reflexivity;
    destruct (existsb _ t); cbn; try reflexivity; destruct (existsb _ t); reflexivity.
Qed.

(* 0 if some file was processed successfully, otherwise 1 if some file failed, otherwise 3 *)
Theorem exit_status_spec rs :
  (exit_code rs = 0 <-> In RsOk rs) /\
  (exit_code rs = 1 <-> (~ In RsOk rs /\ In RsFailed rs)) /\
  (exit_code rs = 3 <-> (~ In RsOk rs /\ ~ In RsFailed rs)).
Proof.
  unfold exit_code, summary. rewrite summary_go. change (has_r ?r (RsSkipped :: rs)) with (has_r r rs).
  rewrite <- !(has_r_In _ rs).
  destruct (has_r RsOk rs); [|destruct (has_r RsFailed rs)]; cbn.
  - (* some file succeeded: 0 *)
    repeat split; try discriminate; intros [H _]; destruct H; reflexivity.
  - (* none succeeded, some failed: 1 *)
    repeat split; try discriminate. intros [_ H]. destruct H. reflexivity.
  - (* neither: 3 *)
    repeat split; try discriminate. intros [_ H]. discriminate H.
Qed.

Theorem output_route_spec inp outp fo :
  (* in place and not improved: nothing is written *)
  (fo = true -> (outp = OutPath None false \/ outp = OutPath None true) -> forall q, inp = InPath q -> route inp outp fo = (DNowhere, false)) /\
  (* --pretend never writes *)
  (outp = OutNone -> fst (route inp outp fo) = DNowhere) /\
  (* --stdout writes to stdout; the original bytes when not improved *)
  (outp = OutStdout -> route inp outp fo = (DStdout, fo)) /\
  (* a different destination gets the original bytes when not improved *)
  (forall p q pr, outp = OutPath (Some p) pr -> inp = InPath q -> list_eqb Z.eqb p q = false -> route inp outp fo = (DFile p, fo)).
Proof.
  repeat split.
  - intros -> [-> | ->] q ->; reflexivity.
  - intros ->. destruct inp, fo; reflexivity.
  - intros ->. destruct inp, fo; reflexivity.
  - intros p q pr -> -> E. unfold route. rewrite E. rewrite andb_false_r. reflexivity.
Qed.

Theorem collect_no_recursion nodes prefix fuel :
  forall p, In p (collect (S fuel) false true prefix nodes) -> exists name, In (FFile name) nodes /\ p = prefix ++ [name].
Proof.
  intros p H. cbn [collect] in H. apply in_flat_map in H. destruct H as [n [Hn Hp]].
  destruct n as [name|name entries]; [|destruct Hp].
  cbn in Hp. destruct Hp as [<-|[]]. exists name. auto.
Qed.

Theorem collect_below_top_only_png fuel prefix nodes rec :
  forall p, In p (collect fuel rec false prefix nodes) ->
  exists name, is_png_name name = true /\ last p [] = name.
Proof.
  revert prefix nodes. induction fuel as [|fu IH]; intros prefix nodes p H; [destruct H|].
  cbn [collect] in H. apply in_flat_map in H. destruct H as [n [Hn Hp]].
  destruct n as [name|name entries].
  - cbn [negb andb] in Hp. destruct (is_png_name name) eqn:E; cbn [negb] in Hp; [|destruct Hp].
    destruct Hp as [<-|[]]. exists name. split; [exact E|]. rewrite last_last. reflexivity.
  - destruct rec; [|destruct Hp]. eapply IH; eauto.
Qed.
