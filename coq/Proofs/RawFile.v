(* C11: the raw-image entry point - which chunks are written (closed form) and the scaled variant of the pixel theorem. *)
From OxiVerif Require Import Base.Common Spec.DecodeFile Model.Types Model.Options Model.Headers Model.PngData Model.Optimize Proofs.Bridge
  Proofs.LiftColor Proofs.ChunkProofs Proofs.OutputProofs Proofs.FileToFile Proofs.ContainerOk Proofs.ScaledPipeline Proofs.ScaledFile
  Proofs.ChunkFlow.
Local Open Scope Z_scope.

(* the chunks attached by the caller reach the file through the strip policy, the ICC decision (C14) and the conditional drops (C07) *)
Theorem raw_create_chunks e r o out : raw_create e r o = Ok out ->
  exists c, out = output {| raw := c_image c; idat_data := c_cdata c;
                            aux_chunks := postprocess_chunks (fst (preprocess_chunks e (List.filter (fun c => strip_keep (strip o) (c_name c)) (ri_aux r)) o))
                                                             (hdr (c_image c)) (hdr (ri_png r));
                            frames := [] |}.
Proof.
  intros H. destruct (raw_create_cases _ _ _ _ H) as (c & _ & ->). exists c. reflexivity.
Qed.

Theorem raw_written_closed_form p : frames p = [] ->
  Forall (fun c => cname_eqb (c_name c) name_IDAT = false) (aux_chunks p) ->
  output_chunks p =
    (name_IHDR, to_be32 (width (hdr (raw p))) ++ to_be32 (height (hdr (raw p))) ++
                [depth (hdr (raw p)); png_header_code (ctype (hdr (raw p))); 0; 0; if interlaced (hdr (raw p)) then 1 else 0])
    :: map as_pair (List.filter (fun c => negb (after_plte c)) (aux_chunks p))
    ++ key_chunks (hdr (raw p))
    ++ map as_pair (List.filter (write_special (hdr (raw p))) (aux_chunks p))
    ++ [(name_IDAT, idat_data p); (name_IEND, [])].
Proof.
  intros Hf Ha. rewrite output_chunks_layout. unfold written_after. rewrite (split_idat_no_idat (aux_chunks p) [] Ha), Hf. cbn [rev app concat frame_chunk_list map].
  reflexivity.
Qed.

Lemma postprocess_no_idat aux hd orig : Forall (fun c => cname_eqb (c_name c) name_IDAT = false) aux ->
  Forall (fun c => cname_eqb (c_name c) name_IDAT = false) (postprocess_chunks aux hd orig).
Proof.
  apply incl_Forall. exact (postprocess_sublist aux hd orig).
Qed.

Theorem raw_create_scaled e o (inflate : list Z -> option (list Z)) r out pic N M :
  optimize_alpha o = false -> scale_16 o = true -> bit_depth_reduction o = true -> dl e S16to8 = false ->
  wf (ri_png r) -> sem (ri_png r) = Some pic -> depth (hdr (ri_png r)) = 16 ->
  0 <= width (hdr (ri_png r)) < 2 ^ 32 -> 0 <= height (hdr (ri_png r)) < 2 ^ 32 ->
  Forall (chunk_ok N) (ri_aux r) -> 0 <= N -> N + 5 <= M -> M + 4 < 2 ^ 31 -> (forall d s, lenZ (z_deflate e d s) <= M) ->
  (forall d s, inflate (z_deflate e d s) = Some s) ->
  Forall (fun c => cname_eqb (c_name c) name_acTL = false) (ri_aux r) ->
  raw_create e r o = Ok out ->
  spec_decode_png inflate out = Some (scaled_picture (ri_png r) pic).
Proof.
  intros Ha Hs Hbd Hdl Hwf Hsem Hd16 Hw Hh Haux HN HM HM2 Hdefl Hz Hnoact H.
  destruct (raw_create_cases _ _ _ _ H) as (c & Er & ->). clear H.
  set (aux0 := List.filter (fun c => strip_keep (strip o) (c_name c)) (ri_aux r)) in *.
  assert (Hact0 : has_chunk name_acTL aux0 = false).
  { unfold has_chunk. apply not_true_is_false. intros Hex. apply existsb_exists in Hex. destruct Hex as [x [Hx Hn]]. apply filter_In in Hx.
    rewrite Forall_forall in Hnoact. rewrite (Hnoact x (proj1 Hx)) in Hn. discriminate. }
  destruct (preprocess_keeps_lossy e aux0 o) as [Ea Es]. rewrite <- Ea in Ha. rewrite <- Es in Hs.
  rewrite <- (preprocess_keeps_bd e aux0 o Hact0) in Hbd.
  destruct (optimize_raw_scaled e _ (ri_png r) None c pic Ha Hs Hbd Hdl (conj Hwf Hsem) Hd16 Er) as [Hm1 _].
  rewrite container_ok_decodes by exact (raw_create_container e r o c _ N M Haux HN HM HM2 Hdefl Er Hm1 Hw Hh).
  cbn [raw idat_data]. destruct (emitted_stream_of_means e _ (ri_png r) None c _ Ha Hm1 Er) as (d & st & -> & Hdec).
  rewrite Hz. exact Hdec.
Qed.
