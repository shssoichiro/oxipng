(* Input handling, from the model alone (C05, C11). What parse_next_chunk, one step of the loop, parse_ihdr_chunk, PngImage::new and
   from_slice have done when they return Ok (the lemmas the later files about parsing start from); the chunk loop ends within its
   fuel, and it, its step and parse_ihdr_chunk never panic (PngImage::new and from_slice: NoPanicParse.v); accepted headers are legal;
   the decoded size is bounded by the compressed size; RawImage::new never panics and accepts exactly the consistent arguments (C11). *)
From OxiVerif Require Import Base.Common Model.Types Model.Options Model.Headers Model.ScanLines
  Model.Filters Model.PngData Model.Optimize.

Lemma skipn_length_le {A} n (l : list A) : (length (skipn n l) <= length l)%nat.
Proof. rewrite skipn_length. lia. Qed.

Lemma be32_of_nonneg l : bytes_ok l -> 0 <= be32_of l.
Proof.
  intros H. unfold be32_of. destruct l as [|a [|b [|c0 [|d t]]]]; try lia.
  apply bytes_ok_cons in H. destruct H as [Ha H]. apply bytes_ok_cons in H. destruct H as [Hb H].
  apply bytes_ok_cons in H. destruct H as [Hc H]. apply bytes_ok_cons in H. destruct H as [Hd H].
  unfold be32, byte_ok in *. lia.
Qed.

Lemma parse_next_chunk_data rest fx c rest' : bytes_ok rest ->
  parse_next_chunk rest fx = Ok (Some (c, rest')) ->
  bytes_ok (c_data c) /\ bytes_ok rest' /\ (length (c_data c) + length rest' + 12 <= length rest)%nat.
Proof.
  unfold parse_next_chunk. intros Hb H.
  destruct (Nat.ltb_spec (length rest) 4); [discriminate|].
  destruct (Z.ltb_spec (lenZ rest) (12 + be32_of rest)) as [|Hfit]; [discriminate|].
  destruct (cname_eqb _ name_IEND); [discriminate|]. destruct (negb fx && _); [discriminate|].
  set (n := Z.to_nat (be32_of rest)) in *. set (body := skipn 4 (skipn 4 rest)) in *.
  assert (E : c = {| c_name := firstn 4 (skipn 4 rest); c_data := firstn n body |} /\ rest' = skipn 4 (skipn n body)) by (split; congruence).
  destruct E as [-> ->]. clear H. pose proof (be32_of_nonneg rest Hb) as Hnn. unfold lenZ in Hfit.
  assert (Hbb : bytes_ok body) by (do 2 apply bytes_ok_skipn; exact Hb).
  split; [apply bytes_ok_firstn; exact Hbb|]. split; [do 2 apply bytes_ok_skipn; exact Hbb|].
  unfold c_data, body. rewrite firstn_length, !skipn_length. lia.
Qed.

Lemma parse_next_chunk_no_panic rest fx p : parse_next_chunk rest fx <> Panic p.
Proof.
  unfold parse_next_chunk.
  destruct (length rest <? 4)%nat; [discriminate|]. destruct (lenZ rest <? 12 + be32_of rest); [discriminate|].
  destruct (cname_eqb _ name_IEND); [discriminate|]. destruct (negb fx && _); discriminate.
Qed.

Lemma frame_from_fctl_no_panic b p : frame_from_fctl b <> Panic p.
Proof. unfold frame_from_fctl. destruct (length b <? 26)%nat; discriminate. Qed.

(* One step of the chunk loop never panics, and when it succeeds the new state is the old one with, by kind of chunk: the four
   key chunks stored in their fields; an ancillary chunk that passes the policy ([kept]) pushed on the list, and so is a marker
   where the image data starts; the frame chunks of a kept animation (fdAT, fcTL once the image data started) checked against
   the sequence counter and put into the frame list instead. *)
Lemma from_slice_step_spec o st c :
  let n := c_name c in
  let ie := match fs_idat st with [] => true | _ => false end in
  let kept :=
    negb (cname_eqb n name_IDAT || cname_eqb n name_IHDR || cname_eqb n name_PLTE || cname_eqb n name_tRNS)
    && strip_keep (strip o) n
    && negb ((cname_eqb n name_acTL || cname_eqb n name_fcTL || cname_eqb n name_fdAT)
             && negb (strip_keep (strip o) name_acTL && strip_keep (strip o) name_fcTL && strip_keep (strip o) name_fdAT))
    && negb (is_c2pa n (c_data c)) in
  match from_slice_step o st c with
  | Ok st1 =>
      fs_idat st1 = (if cname_eqb n name_IDAT then fs_idat st ++ c_data c else fs_idat st) /\
      fs_ihdr st1 = (if cname_eqb n name_IHDR then Some (c_data c) else fs_ihdr st) /\
      fs_plte st1 = (if cname_eqb n name_PLTE then Some (c_data c) else fs_plte st) /\
      fs_trns st1 = (if cname_eqb n name_tRNS then Some (c_data c) else fs_trns st) /\
      fs_aux st1 =
        (if cname_eqb n name_IDAT then (if ie then [{| c_name := n; c_data := [] |}] else [])
         else if kept && negb (cname_eqb n name_fdAT || cname_eqb n name_fcTL && negb ie) then [c] else []) ++ fs_aux st /\
      if kept && (cname_eqb n name_fcTL || cname_eqb n name_fdAT) then
        (4 <= length (c_data c))%nat /\ be32_of (c_data c) = fs_seq st /\ fs_seq st1 = fs_seq st + 1 /\
        (if cname_eqb n name_fdAT then push_fdat (fs_frames st) (skipn 4 (c_data c)) = Some (fs_frames st1)
         else if ie then fs_frames st1 = fs_frames st
         else exists f, frame_from_fctl (c_data c) = Ok f /\ fs_frames st1 = f :: fs_frames st)
      else fs_seq st1 = fs_seq st /\ fs_frames st1 = fs_frames st
  | Err _ => True
  | Panic _ => False
  end.
Proof.
  unfold from_slice_step. cbv zeta.
  (* with the name of a key chunk known, every other name test computes *)
  destruct (cname_eqb (c_name c) name_IDAT) eqn:E1.
  { apply list_eqb_Z_spec in E1. rewrite E1. destruct (fs_idat st); cbn; repeat split; reflexivity. }
  destruct (cname_eqb (c_name c) name_IHDR) eqn:E2; [apply list_eqb_Z_spec in E2; rewrite E2; cbn; repeat split; reflexivity|].
  destruct (cname_eqb (c_name c) name_PLTE) eqn:E3; [apply list_eqb_Z_spec in E3; rewrite E3; cbn; repeat split; reflexivity|].
  destruct (cname_eqb (c_name c) name_tRNS); [cbn; repeat split; reflexivity|].
  cbn [orb negb andb].
  destruct (strip_keep (strip o) (c_name c)); cbn [andb]; [|repeat split; reflexivity].
  destruct ((_ || _ || _) && negb (_ && _ && _)); cbn [negb andb]; [repeat split; reflexivity|].
  destruct (is_c2pa (c_name c) (c_data c)); cbn [negb andb]; [destruct (strip_is_none (strip o)); [repeat split; reflexivity|exact I]|].
  destruct (cname_eqb (c_name c) name_fcTL) eqn:Ef.
  - assert (Ed : cname_eqb (c_name c) name_fdAT = false) by (apply list_eqb_Z_spec in Ef; rewrite Ef; reflexivity).
    rewrite Ed. cbn [orb andb].
    destruct (Nat.ltb_spec (length (c_data c)) 4) as [|L4]; [exact I|].
    destruct (Z.eqb_spec (be32_of (c_data c)) (fs_seq st)) as [Q|]; [|exact I]. cbn [negb].
    destruct (fs_idat st); cbn [negb]; [cbn; repeat split; assumption|].
    destruct (frame_from_fctl (c_data c)) as [f| |q] eqn:Ec; cbn [bind]; [cbn; repeat split; eauto|exact I|exact (frame_from_fctl_no_panic _ _ Ec)].
  - destruct (cname_eqb (c_name c) name_fdAT); cbn [orb andb negb]; [|repeat split; reflexivity].
    destruct (Nat.ltb_spec (length (c_data c)) 4) as [|L4]; [exact I|].
    destruct (Z.eqb_spec (be32_of (c_data c)) (fs_seq st)) as [Q|]; [|exact I]. cbn [negb].
    destruct (push_fdat (fs_frames st) _); [cbn; repeat split; assumption|exact I].
Qed.

Lemma from_slice_step_no_panic o st c p : from_slice_step o st c <> Panic p.
Proof. intros E. pose proof (from_slice_step_spec o st c) as K. rewrite E in K. exact K. Qed.

(* the `while let Some(chunk)` loop ends within the fuel the model gives it, and never panics *)
Theorem from_slice_loop_no_panic o : forall fuel rest st p, bytes_ok rest ->
  (length rest / 12 < fuel)%nat -> from_slice_loop fuel o rest st <> Panic p.
Proof.
  induction fuel as [|f IH]; intros rest st p Hb Hf; [lia|].
  cbn [from_slice_loop]. apply bind_no_panic; [intros q; apply parse_next_chunk_no_panic|]. intros [[c rest']|] E; [|discriminate].
  apply bind_no_panic; [intros q; apply from_slice_step_no_panic|]. intros st' _.
  destruct (parse_next_chunk_data _ _ _ _ Hb E) as (_ & Hb' & Hc). apply IH; [exact Hb'|].
  assert (length rest' / 12 < length rest / 12)%nat; [|lia].
  apply Nat.div_lt_upper_bound; [lia|].
  pose proof (Nat.div_mod (length rest) 12 ltac:(lia)). pose proof (Nat.mod_upper_bound (length rest) 12 ltac:(lia)). lia.
Qed.

Lemma depth_valid_cases d : depth_valid d = true -> d = 1 \/ d = 2 \/ d = 4 \/ d = 8 \/ d = 16.
Proof. unfold depth_valid. rewrite !orb_true_iff, !Z.eqb_eq. tauto. Qed.

(* headers that are accepted are legal: one of the 15 colour type / bit depth pairs, interlace 0/1 *)
Theorem parse_ihdr_legal b plte trns hd : parse_ihdr_chunk b plte trns = Ok hd ->
  depth_valid (depth hd) = true /\
  match ctype hd with
  | Gray _ => True
  | Indexed _ => depth hd <= 8
  | _ => 8 <= depth hd
  end.
Proof.
  unfold parse_ihdr_chunk. intros H.
  destruct (nth_error b 12) as [il|]; [|discriminate].
  apply bind_Ok in H as (c & Ec & H).
  destruct (negb (depth_valid (nth 8 b 0))) eqn:Ed; [discriminate|].
  destruct (negb ((il =? 0) || (il =? 1))); [discriminate|].
  match type of H with (if ?v then _ else _) = _ => destruct v eqn:Ev end; [|discriminate].
  injection H as <-. cbn [depth ctype]. split; [destruct (depth_valid (nth 8 b 0)); [reflexivity|discriminate]|].
  destruct c; auto; apply Z.leb_le; exact Ev.
Qed.

Lemma parse_ihdr_fields b plte trns hd : parse_ihdr_chunk b plte trns = Ok hd ->
  width hd = be32_of b /\ height hd = be32_of (skipn 4 b) /\ depth hd = nth 8 b 0 /\ interlaced hd = (nth 12 b 0 =? 1).
Proof.
  unfold parse_ihdr_chunk. intros H. destruct (nth_error b 12) as [il|] eqn:Eil; [|discriminate].
  rewrite (nth_error_nth _ _ 0 Eil).
  apply bind_Ok in H as (ct & _ & H).
  destruct (negb _); [discriminate|]. destruct (negb _); [discriminate|].
  match type of H with (if ?c then _ else _) = _ => destruct c end; [|discriminate]. injection H as <-. repeat split.
Qed.

Theorem parse_ihdr_no_panic b plte trns p : parse_ihdr_chunk b plte trns <> Panic p.
Proof.
  unfold parse_ihdr_chunk. destruct (nth_error b 12); [|discriminate].
  apply bind_no_panic.
  - (* the colour type is a match on the code byte: 0, 2, 3, 4, 6, three binary digits deep *)
    intros q. destruct (nth 9 b 0) as [|c|c]; try discriminate. do 3 (destruct c as [c|c|]; try discriminate).
  - intros c _. destruct (negb (depth_valid _)); [discriminate|]. destruct (negb (_ || _)); [discriminate|].
    match goal with |- (if ?v then _ else _) <> _ => destruct v end; discriminate.
Qed.

Lemma png_image_new_inv e hd compressed img : png_image_new e hd compressed = Ok img ->
  width hd <> 0 /\ height hd <> 0 /\ raw_data_size hd / 1032 <= lenZ compressed /\
  exists raw d, z_inflate e compressed (raw_data_size hd) = Ok raw /\ lenZ raw = raw_data_size hd /\
    unfilter_image {| hdr := hd; data := raw |} = Ok d /\ img = {| hdr := hd; data := d |}.
Proof.
  unfold png_image_new. intros H.
  destruct (Z.eqb_spec (width hd) 0); [discriminate|]. destruct (Z.eqb_spec (height hd) 0); [discriminate|]. cbn [orb] in H.
  destruct (Z.ltb_spec (lenZ compressed) (raw_data_size hd / 1032)); [discriminate|].
  apply bind_Ok in H as (raw & Ez & H).
  destruct (Z.eqb_spec (lenZ raw) (raw_data_size hd)); [|discriminate]. cbn [negb] in H.
  apply bind_Ok in H as (d & Eu & H). injection H as <-.
  repeat split; auto. exists raw, d. repeat split; auto.
Qed.

Lemma png_image_new_hdr e hd compressed img : png_image_new e hd compressed = Ok img -> hdr img = hd.
Proof. intros H. destruct (png_image_new_inv _ _ _ _ H) as (_ & _ & _ & raw & d & _ & _ & _ & ->). reflexivity. Qed.

Definition fs_start : fs_state :=
  {| fs_idat := []; fs_ihdr := None; fs_plte := None; fs_trns := None; fs_aux := []; fs_frames := []; fs_seq := 0 |}.

Lemma from_slice_inv e bytes o p : from_slice e bytes o = Ok p ->
  exists st ih hd img,
    list_eqb Z.eqb (firstn 8 bytes) PNG_SIG = true /\
    from_slice_loop (S (length bytes / 12)) o (skipn 8 bytes) fs_start = Ok st /\
    fs_idat st <> [] /\ fs_ihdr st = Some ih /\
    parse_ihdr_chunk ih (fs_plte st) (fs_trns st) = Ok hd /\ png_image_new e hd (fs_idat st) = Ok img /\
    p = {| raw := img; idat_data := fs_idat st; aux_chunks := rev (fs_aux st); frames := rev (fs_frames st) |}.
Proof.
  unfold from_slice. intros H. destruct (length bytes <? 8)%nat; [discriminate|].
  destruct (list_eqb Z.eqb (firstn 8 bytes) PNG_SIG); [|discriminate]. cbn [negb] in H.
  apply bind_Ok in H as (st & Eloop & H).
  destruct (fs_idat st) as [|i0 it] eqn:Ei; [discriminate|]. destruct (fs_ihdr st) as [ih|] eqn:Eih; [|discriminate].
  apply bind_Ok in H as (hd & Ehd & H).
  apply bind_Ok in H as (img & Eimg & H). injection H as <-.
  exists st, ih, hd, img. rewrite Ei. repeat split; auto. discriminate.
Qed.

Lemma unfilter_go_length f bpp : forall data prev buf rq, (length (unfilter_go f bpp buf rq data prev) <= length data)%nat.
Proof. induction data as [|x xs IH]; intros [|up p] buf rq; cbn [unfilter_go length]; try lia. apply le_n_S, IH. Qed.

Lemma unfilter_image_go_length bpp : forall ls st st', unfilter_image_go bpp st ls = Ok st' ->
  (length (concat (rev (ui_out st'))) <= length (concat (rev (ui_out st))) + length (flat_map l_data ls))%nat.
Proof.
  induction ls as [|l t IH]; intros st st' Hgo; cbn [unfilter_image_go flat_map] in *.
  - injection Hgo as <-. lia.
  - apply bind_Ok in Hgo as (st1 & Est & Hgo). specialize (IH _ _ Hgo). rewrite app_length.
    enough (length (concat (rev (ui_out st1))) <= length (concat (rev (ui_out st))) + length (l_data l))%nat by lia.
    unfold unfilter_image_step in Est. destruct (filter_of_code (l_filter l)) as [f|]; [|discriminate].
    apply bind_Ok in Est as (u & Eul & Est).
    injection Est as <-. cbn [ui_out rev]. rewrite concat_app, app_length. cbn [concat]. rewrite app_nil_r.
    enough (length u <= length (l_data l))%nat by lia.
    unfold unfilter_line in Eul. destruct (length (l_data l) <? bpp)%nat; [discriminate|].
    destruct (negb _); [discriminate|]. destruct bpp; [discriminate|].
    destruct (is_standard f); [|discriminate]. injection Eul as <-. apply unfilter_go_length.
Qed.

Lemma cut_lines_length hf : forall rs raw ls, cut_lines hf rs raw = Ok ls -> (length (flat_map l_data ls) <= length raw)%nat.
Proof.
  induction rs as [|[[len pass] npix] t IH]; intros raw ls Hc; cbn [cut_lines] in Hc.
  - injection Hc as <-. cbn. lia.
  - destruct (hf && (len <=? 1)); [discriminate|].
    destruct (Nat.ltb_spec (length raw) (Z.to_nat len)) as [|El]; [injection Hc as <-; cbn; lia|].
    match type of Hc with (match ?X with _ => _ end) = _ => destruct X as [ln|] eqn:Eln end; [|discriminate].
    apply bind_Ok in Hc as (r & Er & Hc).
    injection Hc as <-. specialize (IH _ _ Er). cbn [flat_map]. rewrite app_length. rewrite skipn_length in IH.
    (* the line is the piece cut off, less its filter byte *)
    enough (length (l_data ln) <= length (firstn (Z.to_nat len) raw))%nat by (rewrite firstn_length_le in * by exact El; lia).
    destruct hf; [destruct (firstn _ raw); [discriminate|]|]; injection Eln as <-; cbn [l_data length]; lia.
Qed.

(* what is decoded is bounded by what is present: a header whose decoded size exceeds 1032 times
   the compressed data is rejected before anything is allocated; zero dimensions are rejected *)
Theorem png_image_new_size_bound e hd compressed img :
  png_image_new e hd compressed = Ok img ->
  width hd <> 0 /\ height hd <> 0 /\ raw_data_size hd < 1032 * (lenZ compressed + 1) /\ lenZ (data img) <= raw_data_size hd + 0 * 0.
Proof.
  intros H. destruct (png_image_new_inv _ _ _ _ H) as (Ew & Eh & E1 & raw & d & _ & E2 & Eu & ->).
  split; [exact Ew|]. split; [exact Eh|]. split; [Z.div_mod_to_equations; lia|]. cbn [data]. rewrite <- E2, Z.mul_0_r, Z.add_0_r.
  unfold unfilter_image, scan_lines in Eu. cbn [hdr data] in Eu.
  apply bind_Ok in Eu as (lines & Es & Eu). apply bind_Ok in Es as (rs & _ & Es).
  apply bind_Ok in Eu as (st & Eg & Eu). injection Eu as <-.
  pose proof (unfilter_image_go_length _ _ _ _ Eg) as G. pose proof (cut_lines_length _ _ _ _ Es).
  cbn [ui_out rev concat length] in G. unfold lenZ. lia.
Qed.

(* the raw-image constructor rejects inconsistent arguments with an error value, never a panic,
   and accepts exactly the consistent ones *)
Theorem raw_image_new_never_panics w h c d dat : is_panic (raw_image_new w h c d dat) = false.
Proof.
  unfold raw_image_new. destruct (negb _); [reflexivity|]. destruct (_ || _ || _); reflexivity.
Qed.

Theorem raw_image_new_accepts_iff w h c d dat :
  is_ok (raw_image_new w h c d dat) = true <->
  (match c with Gray _ => True | Indexed _ => d <= 8 | _ => 8 <= d end) /\
  w <> 0 /\ h <> 0 /\ lenZ dat = sat_mul (cdiv (d * channels_per_pixel c * w) 8) h.
Proof.
  unfold raw_image_new.
  destruct (match c with Gray _ => true | Indexed _ => d <=? 8 | _ => 8 <=? d end) eqn:Ev; cbn [negb].
  - (* when one of the three tests fails, both sides are false *)
    destruct (Z.eqb_spec w 0), (Z.eqb_spec h 0), (Z.eqb_spec (lenZ dat) (sat_mul (cdiv (d * channels_per_pixel c * w) 8) h));
      cbn [orb negb is_ok]; try (split; [discriminate|tauto]).
    split; [intros _|reflexivity]. split; [destruct c; auto; apply Z.leb_le; exact Ev|auto].
  - cbn [is_ok]. split; [discriminate|]. intros (Hv & _). destruct c; try discriminate; apply Z.leb_gt in Ev; lia.
Qed.
