(* The invariant of the battiato sorter over an abstract vertex table (st = degree, ch = chain number), and the one way it
   changes: an edge i - j between endpoints of two different components joins them into one chain. A white vertex counts as
   a component of its own, so "new chain", "attach a vertex" and "merge two chains" are the same step. *)
From OxiVerif Require Import Base.Common Base.ListFacts Model.Palette.
From OxiVerif Require Import Proofs.BattiatoTable.
From Coq Require Import Permutation.
Local Open Scope Z_scope.

(* what an edge that has been looked at leaves behind: its ends lie in one chain, or one of them is interior *)
Definition link (st ch : Z -> Z) (a b : Z) : Prop := 1 <= st a /\ 1 <= st b /\ ch a = ch b \/ st a = 2 \/ st b = 2.

Record cinv (N : Z) (chains : list (list Z)) (st ch : Z -> Z) (done : list (Z * Z)) : Prop := {
  c_in : forall v, 0 <= v < N -> 1 <= st v -> In v (nthZ chains (ch v) []);
  c_of : forall k v, In v (nth k chains []) -> 0 <= v < N /\ 1 <= st v /\ ch v = Z.of_nat k;
  c_nodup : forall k, NoDup (nth k chains []);
  c_slack : forall k, nth k chains [] <> [] -> slack st (nth k chains []) = 2;
  c_st : forall v, 0 <= v < N -> st v = 0 \/ st v = 1 \/ st v = 2;
  c_first : nth 0 chains [] = [] -> chains = [];
  c_hist : forall a b, In (a, b) done -> 0 <= a < N /\ 0 <= b < N /\ link st ch a b
}.
Arguments c_in {N chains st ch done}.
Arguments c_of {N chains st ch done}.
Arguments c_nodup {N chains st ch done}.
Arguments c_slack {N chains st ch done}.
Arguments c_st {N chains st ch done}.
Arguments c_first {N chains st ch done}.
Arguments c_hist {N chains st ch done}.

Lemma cinv_skip {N chains st ch done a b} : cinv N chains st ch done -> 0 <= a < N -> 0 <= b < N -> link st ch a b ->
  cinv N chains st ch ((a, b) :: done).
Proof. intros [] Ra Rb Hl. constructor; auto. intros x y [[= <- <-]|Hin]; auto. Qed.

Section Join.
Variables (N : Z) (chains : list (list Z)) (st ch : Z -> Z) (done : list (Z * Z)).
Hypothesis I : cinv N chains st ch done.

Lemma c_idx v : 0 <= v < N -> 1 <= st v -> 0 <= ch v < lenZ chains.
Proof.
  intros Rv Sv. pose proof (c_in I v Rv Sv) as Hin. unfold nthZ in Hin. destruct (c_of I _ _ Hin) as (_ & _ & E).
  destruct (Nat.lt_ge_cases (Z.to_nat (ch v)) (length chains)) as [Hlt|Hge]; [unfold lenZ; lia|].
  rewrite nth_overflow in Hin by exact Hge. destruct Hin.
Qed.

(* the component of i: a white vertex is a path of its own *)
Definition comp (i : Z) : list Z := if st i =? 0 then [i] else nthZ chains (ch i) [].

Lemma comp_in i v : 0 <= i < N -> In v (comp i) <-> v = i \/ 0 <= v < N /\ 1 <= st v /\ 1 <= st i /\ ch v = ch i.
Proof.
  intros Ri. pose proof (c_st I i Ri) as Si. unfold comp. destruct (Z.eqb_spec (st i) 0) as [E|E].
  - cbn [In]. split; [intros [<-|[]]; left; reflexivity|intros [->|?]; [left; reflexivity|lia]].
  - pose proof (c_idx i Ri ltac:(lia)) as Xi. unfold nthZ. split.
    + intros Hv. apply (c_of I) in Hv. lia.
    + intros [->|(Rv & Sv & _ & <-)]; apply (c_in I); assumption || lia.
Qed.

Lemma comp_nodup i : NoDup (comp i).
Proof. unfold comp. destruct (st i =? 0); [constructor; [intros []|constructor]|apply (c_nodup I)]. Qed.

Lemma comp_slack i : 0 <= i < N -> slack st (comp i) = 2.
Proof.
  intros Ri. pose proof (c_st I i Ri) as Si. unfold comp. destruct (Z.eqb_spec (st i) 0) as [E|E]; [cbn [slack]; lia|].
  apply (c_slack I). intros E0. pose proof (c_in I i Ri ltac:(lia)) as Hin. unfold nthZ in Hin. rewrite E0 in Hin. destruct Hin.
Qed.

Variables (chains' : list (list Z)) (st' ch' : Z -> Z) (i j K : Z).
Hypotheses (Ri : 0 <= i < N) (Rj : 0 <= j < N) (Hij : i <> j) (Si : st i <= 1) (Sj : st j <= 1).
Let C := comp i ++ comp j.
(* chain k holds a part of the joined component *)
Let dead (k : nat) := 1 <= st i /\ ch i = Z.of_nat k \/ 1 <= st j /\ ch j = Z.of_nat k.
Hypotheses
  (Hst : forall v, 0 <= v < N -> st' v = st v + (if Z.eq_dec v i then 1 else 0) + (if Z.eq_dec v j then 1 else 0))
  (HchC : forall v, 0 <= v < N -> In v C -> ch' v = K)
  (HchO : forall v, 0 <= v < N -> ~ In v C -> ch' v = ch v)
  (HC : Permutation (nthZ chains' K []) C)
  (Hoth : forall k, Z.of_nat k <> K -> nth k chains' [] = nth k chains [] /\ ~ dead k \/ nth k chains' [] = [] /\ dead k).

Lemma C_mem v : In v C <-> v = i \/ v = j \/ 0 <= v < N /\ 1 <= st v /\ (1 <= st i /\ ch v = ch i \/ 1 <= st j /\ ch v = ch j).
Proof. unfold C. rewrite in_app_iff, !comp_in by assumption. clear. tauto. Qed.

Lemma C_i : In i C.
Proof. apply C_mem. auto. Qed.
Lemma C_j : In j C.
Proof. apply C_mem. auto. Qed.

(* for a coloured vertex, membership is a matter of its chain number *)
Lemma C_col v : 0 <= v < N -> 1 <= st v -> In v C <-> 1 <= st i /\ ch v = ch i \/ 1 <= st j /\ ch v = ch j.
Proof. intros Rv Sv. rewrite C_mem. split; [intros [->|[->|?]]; lia|lia]. Qed.

Lemma st_mono v : 0 <= v < N -> 0 <= st v <= st' v /\ st' v <= 2 /\ (v = i \/ v = j -> 1 <= st' v).
Proof.
  intros Rv. rewrite (Hst v Rv). pose proof (c_st I v Rv).
  destruct (Z.eq_dec v i) as [->|]; [destruct (Z.eq_dec i j); lia|destruct (Z.eq_dec v j) as [->|]; lia].
Qed.

Lemma C_rng v : In v C -> 0 <= v < N /\ 1 <= st' v.
Proof.
  intros Hv. apply C_mem in Hv. assert (Rv : 0 <= v < N) by (destruct Hv as [->|[->|[Rv _]]]; assumption).
  pose proof (st_mono v Rv). lia.
Qed.

Lemma at_K k : Z.of_nat k = K -> nth k chains' [] = nthZ chains' K [].
Proof. intros E. unfold nthZ. rewrite <- E, Nat2Z.id. reflexivity. Qed.

Lemma join_of k v : In v (nth k chains' []) -> 0 <= v < N /\ 1 <= st' v /\ ch' v = Z.of_nat k.
Proof.
  destruct (Z.eq_dec (Z.of_nat k) K) as [E|E].
  - rewrite (at_K k E). intros Hv. apply (Permutation_in _ HC) in Hv. destruct (C_rng v Hv) as [Rv Sv]. rewrite (HchC v Rv Hv). lia.
  - destruct (Hoth k E) as [[-> Hd]|[-> _]]; [|intros []]. intros Hv. apply (c_of I) in Hv. destruct Hv as (Rv & Sv & Cv).
    pose proof (st_mono v Rv). rewrite (HchO v Rv); [lia|]. rewrite (C_col v Rv Sv). unfold dead in Hd. lia.
Qed.

Lemma join_hist pr a b : pr = (i, j) \/ pr = (j, i) -> In (a, b) (pr :: done) -> 0 <= a < N /\ 0 <= b < N /\ link st' ch' a b.
Proof.
  intros Hpr [E|Hin].
  - pose proof (st_mono i Ri). pose proof (st_mono j Rj). pose proof (HchC i Ri C_i). pose proof (HchC j Rj C_j).
    unfold link. destruct Hpr as [->| ->]; injection E as <- <-; lia.
  - destruct (c_hist I a b Hin) as (Ra & Rb & Hl). split; [exact Ra|]. split; [exact Rb|].
    destruct (st_mono a Ra) as (? & ? & _). destruct (st_mono b Rb) as (? & ? & _). unfold link in *.
    destruct Hl as [(Sa & Sb & Ec)|Hl]; [left|lia]. split; [lia|]. split; [lia|].
    pose proof (C_col a Ra Sa) as Ha. pose proof (C_col b Rb Sb) as Hb.
    destruct (in_dec Z.eq_dec a C) as [Hc|Hc].
    + rewrite (HchC a Ra Hc), (HchC b Rb); [reflexivity|]. apply Hb. apply Ha in Hc. lia.
    + rewrite (HchO a Ra Hc), (HchO b Rb); [exact Ec|]. intros Hc'. apply Hc, Ha. apply Hb in Hc'. lia.
Qed.

Lemma off_C v : 0 <= v < N -> ~ In v C -> st' v = st v.
Proof.
  intros Rv Hc. rewrite (Hst v Rv). destruct (Z.eq_dec v i) as [->|]; [destruct Hc; apply C_i|].
  destruct (Z.eq_dec v j) as [->|]; [destruct Hc; apply C_j|]. lia.
Qed.

(* The joined chain takes the smallest number involved, and i and j are ends of different components. (Declared late and taken apart
   where used: lia is slow in every context that holds these implications.) *)
Hypothesis Hmin : (K = lenZ chains \/ 1 <= st i /\ K = ch i \/ 1 <= st j /\ K = ch j) /\
  (1 <= st i -> K <= ch i) /\ (1 <= st j -> K <= ch j) /\ (1 <= st i -> 1 <= st j -> ch i <> ch j).

Lemma old_K v : In v (nthZ chains K []) -> In v C.
Proof.
  intros Hv. apply in_or_app. unfold comp. destruct Hmin as [[E|[[S E]|[S E]]] _]; rewrite E in Hv.
  - unfold nthZ, lenZ in Hv. rewrite Nat2Z.id, nth_overflow in Hv by apply Nat.le_refl. destruct Hv.
  - left. destruct (Z.eqb_spec (st i) 0); [lia|exact Hv].
  - right. destruct (Z.eqb_spec (st j) 0); [lia|exact Hv].
Qed.

Lemma join_in v : 0 <= v < N -> 1 <= st' v -> In v (nthZ chains' (ch' v) []).
Proof.
  intros Rv Sv. destruct (in_dec Z.eq_dec v C) as [Hc|Hc].
  - rewrite (HchC v Rv Hc). apply (Permutation_in _ (Permutation_sym HC)), Hc.
  - rewrite (HchO v Rv Hc). rewrite (off_C v Rv Hc) in Sv. pose proof (c_in I v Rv Sv) as Hin. unfold nthZ in Hin |- *.
    destruct (Hoth (Z.to_nat (ch v))) as [[-> _]|[_ Hd]].
    + intros E. apply Hc, old_K. unfold nthZ. rewrite <- E, Nat2Z.id. exact Hin.
    + exact Hin.
    + destruct Hc. apply (C_col v Rv Sv). pose proof (c_idx v Rv Sv). unfold dead in Hd. clear Hmin. lia.
Qed.

Lemma C_nodup : NoDup C.
Proof.
  apply NoDup_app_disj; [apply comp_nodup..|]. intros x H1 H2. apply comp_in in H1, H2; [|assumption..].
  destruct H1 as [->|H1]; [lia|]. destruct H2 as [->|H2]; lia.
Qed.

Lemma join_nodup k : NoDup (nth k chains' []).
Proof.
  destruct (Z.eq_dec (Z.of_nat k) K) as [E|E].
  - rewrite (at_K k E). apply (Permutation_NoDup (Permutation_sym HC)), C_nodup.
  - destruct (Hoth k E) as [[-> _]|[-> _]]; [apply (c_nodup I)|constructor].
Qed.

Lemma join_slack k : nth k chains' [] <> [] -> slack st' (nth k chains' []) = 2.
Proof.
  destruct (Z.eq_dec (Z.of_nat k) K) as [E|E].
  - intros _. rewrite (at_K k E), (slack_perm _ _ _ HC), (slack_bump st st' C i j) by (intros v Hv; apply Hst, C_rng, Hv).
    rewrite !(proj1 (NoDup_count_occ' Z.eq_dec C) C_nodup) by (apply C_i || apply C_j).
    unfold C. rewrite slack_app, !comp_slack by assumption. reflexivity.
  - destruct (Hoth k E) as [[-> Hd]|[-> _]]; [|intros H; destruct H; reflexivity]. intros Hne.
    rewrite (slack_bump st st' _ i j) by (intros v Hv; apply Hst, (c_of I k v Hv)).
    rewrite !(proj1 (count_occ_not_In Z.eq_dec _ _)), (c_slack I k Hne); [reflexivity|..];
      intros Hv; apply (c_of I) in Hv; unfold dead in Hd; lia.
Qed.

Lemma join_first : nth 0 chains' [] = [] -> chains' = [].
Proof.
  intros E0. exfalso. pose proof (c_idx i Ri). pose proof (c_idx j Rj). destruct (Z.eq_dec (Z.of_nat 0) K) as [E|E].
  - pose proof (Permutation_in _ (Permutation_sym HC) C_i) as Hi. rewrite <- (at_K _ E), E0 in Hi. destruct Hi.
  - unfold lenZ in *. destruct (Hoth 0%nat E) as [[E1 _]|[_ Hd]]; [|unfold dead in Hd; lia].
    rewrite E1 in E0. rewrite (c_first I E0) in *. cbn [length] in *. lia.
Qed.

Theorem cinv_join pr : pr = (i, j) \/ pr = (j, i) -> cinv N chains' st' ch' (pr :: done).
Proof.
  intros Hpr. constructor.
  - exact join_in.
  - exact join_of.
  - exact join_nodup.
  - exact join_slack.
  - intros v Rv. pose proof (st_mono v Rv). lia.
  - exact join_first.
  - intros a b. apply join_hist, Hpr.
Qed.
End Join.
Arguments c_idx {N chains st ch done}.
Arguments cinv_join {N chains st ch done} I {chains' st' ch'}.
