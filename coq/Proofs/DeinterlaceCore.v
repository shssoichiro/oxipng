(* Two parts of the model of deinterlace_image (src/interlace.rs): what `scatter` (Model.Interlace: the inner loop that
   writes the pixels of one line) puts into a row (scatter_spec), and increment_pass as the search for the next pass that
   has pixels (increment_pass_spec). *)
From OxiVerif Require Import Base.Common Spec.Adam7 Model.Interlace Proofs.Adam7Geom.
Local Open Scope Z_scope.

Section Scatter.
Context {A : Type}.

Lemma scatter_spec (xstep : Z) : 0 < xstep -> forall (pixels row : list A) (x : Z), 0 <= x ->
  (pixels = [] \/ x + (lenZ pixels - 1) * xstep < lenZ row) ->
  exists row', scatter row x xstep pixels = Some row' /\ length row' = length row /\
    (forall i : nat, (i < length pixels)%nat -> nth_error row' (Z.to_nat (x + Z.of_nat i * xstep)) = nth_error pixels i) /\
    (forall k : nat, (forall i : nat, (i < length pixels)%nat -> k <> Z.to_nat (x + Z.of_nat i * xstep)) -> nth_error row' k = nth_error row k).
Proof.
  intros Hs. induction pixels as [|px t IH]; intros row x Hx Hfit.
  - exists row. cbn [scatter length]. repeat split; auto. intros i Hi. lia.
  - destruct Hfit as [|Hfit]; [discriminate|]. unfold lenZ in Hfit. cbn [length] in Hfit. cbn [scatter].
    destruct (Z.ltb_spec x 0); [lia|]. unfold lenZ. destruct (Z.leb_spec (Z.of_nat (length row)) x); [nia|]. cbn [orb].
    destruct (IH (set_nth (Z.to_nat x) px row) (x + xstep) ltac:(lia)) as (row' & E & L & Ha & Hb).
    { destruct t; [left; reflexivity|right]. unfold lenZ in *. rewrite set_nth_length. cbn [length] in *. nia. }
    exists row'. split; [exact E|]. split; [rewrite L; apply set_nth_length|]. split.
    + intros [|i] Hi.
      * rewrite Hb.
        -- replace (x + Z.of_nat 0 * xstep) with x by lia. cbn [nth_error]. apply nth_error_set_nth_eq. lia.
        -- intros i Hi'. nia.
      * cbn [nth_error length] in *. rewrite <- (Ha i) by lia. f_equal. nia.
    + intros k Hk. rewrite Hb.
      * apply nth_error_set_nth_neq. specialize (Hk 0%nat ltac:(cbn; lia)). intros Heq. apply Hk. rewrite <- Heq. f_equal. lia.
      * intros i Hi Heq. apply (Hk (S i) ltac:(cbn; lia)). rewrite Heq. f_equal. nia.
Qed.
End Scatter.

Lemma consts_spec p : In p passes7 -> interlaced_constants p = Some (x0 p, y0 p, dx p, dy p).
Proof. intros Hp. destruct (passes7_cases p Hp) as [->|[->|[->|[->|[->|[->| ->]]]]]]; reflexivity. Qed.

Definition active (w h p : Z) : Prop := x0 p < w /\ y0 p < h.

(* the tests of increment_pass: pass q of a w x h image has no pixel *)
Definition empty_pass (w h q : Z) : bool :=
  match q with 2 => w <=? 4 | 3 => h <=? 4 | 4 => w <=? 2 | 5 => h <=? 2 | 6 => w =? 1 | 7 => h =? 1 | _ => false end.

Lemma empty_pass_spec w h q : 1 <= w -> 1 <= h -> In q passes7 -> (empty_pass w h q = false <-> active w h q).
Proof.
  intros Hw Hh Hq. unfold active. destruct (passes7_cases q Hq) as [->|[->|[->|[->|[->|[->| ->]]]]]]; cbn; lia.
Qed.

(* one `if` of increment_pass: the candidate c moves on when it is pass k and pass k is empty *)
Definition stage (w h k c : Z) : Z := if (c =? k) && empty_pass w h k then c + 1 else c.

Lemma increment_pass_stages p w h :
  increment_pass p w h =
  if p =? 7 then None else
  let c := stage w h 6 (stage w h 5 (stage w h 4 (stage w h 3 (stage w h 2 (p + 1))))) in
  if (c =? 7) && empty_pass w h 7 then None else Some c.
Proof. reflexivity. Qed.

(* after the ifs for passes 2..k: no pass between p and c has pixels, and c, if it has been tested, has some *)
Definition cand (w h p k c : Z) : Prop :=
  p < c <= Z.max k p + 1 /\ (forall q, p < q < c -> ~ active w h q) /\ (c <= k -> active w h c).

Lemma stage_cand w h p k c : 1 <= w -> 1 <= h -> 2 <= k <= 7 ->
  cand w h p (k - 1) c -> cand w h p k (stage w h k c).
Proof.
  intros Hw Hh Hk (Hc & Hlow & Hact). unfold stage.
  pose proof (empty_pass_spec w h k Hw Hh ltac:(apply passes7_range; lia)) as Hk'.
  destruct (Z.eqb_spec c k) as [->|Hne]; cbn [andb]; [destruct (empty_pass w h k) eqn:E|].
  - split; [lia|]. split; [|intros; lia].
    intros q Hq. destruct (Z.eq_dec q k) as [->|]; [|apply Hlow; lia]. rewrite <- Hk'. discriminate.
  - split; [lia|]. split; [exact Hlow|]. intros _. apply Hk'. reflexivity.
  - split; [lia|]. split; [exact Hlow|]. intros Hle. apply Hact. lia.
Qed.

Lemma increment_pass_spec w h p : 1 <= w -> 1 <= h -> In p passes7 ->
  match increment_pass p w h with
  | Some p' => In p' passes7 /\ p < p' /\ active w h p' /\ (forall q, p < q < p' -> ~ active w h q)
  | None => forall q, In q passes7 -> p < q -> ~ active w h q
  end.
Proof.
  intros Hw Hh Hp. apply passes7_range in Hp. rewrite increment_pass_stages.
  destruct (Z.eqb_spec p 7) as [->|H7]; [intros q Hq; apply passes7_range in Hq; lia|].
  set (c := stage w h 6 _). cbv zeta.
  assert (C : cand w h p 6 c).
  { do 5 (apply stage_cand; [lia..|]). repeat split; intros; lia. }
  (* the last test as one more stage: candidate 8 stands for None *)
  pose proof (stage_cand w h p 7 c Hw Hh ltac:(lia) C) as (Hc & Hlow & Hact). destruct C as ((_ & Hc6) & _).
  unfold stage in Hc, Hlow, Hact. destruct ((c =? 7) && empty_pass w h 7) eqn:T.
  - apply andb_true_iff in T as [T _]. apply Z.eqb_eq in T.
    intros q Hq Hlt. apply passes7_range in Hq. apply Hlow. lia.
  - rewrite passes7_range. split; [lia|]. split; [lia|]. split; [apply Hact; lia|exact Hlow].
Qed.
