(* C06 for the frames of an animation: the result for frame k is a function of frame k, its position and the answers of the oracles
   for that frame alone - there is nothing for a schedule to influence, and a failure of one frame cannot change another's data. *)
From OxiVerif Require Import Base.Common Model.Types Model.Options Model.Filters Model.PngData Model.Optimize.
Local Open Scope Z_scope.

Definition frame_result (e : env) (o : options) (hd : ihdr) (f : row_filter) (i : nat) (fr : frame) : res frame :=
  if dl e (SFrame i) then Ok fr else
  do img <- png_image_new e (with_dims hd (f_width fr) (f_height fr)) (f_data fr);
  do filtered <- filter_image (e_brute e img (optimize_alpha o)) img f (optimize_alpha o);
  match deflate_capped e (deflate o) filtered (Some (lenZ (f_data fr) - 1)) with
  | Ok d => Ok (with_fdata fr d)
  | _ => Ok fr
  end.

Theorem recompress_frames_pointwise e o hd f : forall fs i fs',
  recompress_frames_go e o hd f i fs = Ok fs' ->
  length fs' = length fs /\ forall k fr, nth_error fs k = Some fr -> exists fr', nth_error fs' k = Some fr' /\ frame_result e o hd f (i + k) fr = Ok fr'.
Proof.
  induction fs as [|fr t IH]; intros i fs' H; cbn [recompress_frames_go] in H.
  - injection H as <-. split; [reflexivity|]. intros [|k] fr0 Hk; discriminate.
  - fold (frame_result e o hd f i fr) in H.
    destruct (frame_result e o hd f i fr) as [fr1|?|?] eqn:E1; cbn [bind] in H; try discriminate.
    destruct (recompress_frames_go e o hd f (S i) t) as [rest|?|?] eqn:E2; cbn [bind] in H; try discriminate. injection H as <-.
    destruct (IH _ _ E2) as [L P]. split; [cbn; congruence|]. intros [|k] fr0 Hk; cbn [nth_error] in *.
    + injection Hk as <-. exists fr1. split; [reflexivity|]. rewrite Nat.add_0_r. exact E1.
    + destruct (P k fr0 Hk) as (fr' & A & B). exists fr'. split; [exact A|]. replace (i + S k)%nat with (S i + k)%nat by lia. exact B.
Qed.

(* hence a relation between a frame and its own result holds frame by frame of the whole call *)
Lemma recompress_frames_each e o hd f (R : frame -> frame -> Prop) :
  (forall k fr fr', frame_result e o hd f k fr = Ok fr' -> R fr fr') ->
  forall i fs fs', recompress_frames_go e o hd f i fs = Ok fs' -> Forall2 R fs fs'.
Proof.
  intros HR i fs. revert i. induction fs as [|fr t IH]; intros i fs' H; cbn [recompress_frames_go] in H; [injection H as <-; constructor|].
  fold (frame_result e o hd f i fr) in H. apply bind_Ok in H as (fr1 & E1 & H). apply bind_Ok in H as (rest & E2 & [= <-]).
  constructor; [exact (HR i fr fr1 E1)|exact (IH _ _ E2)].
Qed.

Theorem recompress_frames_error_is_local e o hd f : forall fs i,
  (forall fs', recompress_frames_go e o hd f i fs <> Ok fs') ->
  exists k fr, nth_error fs k = Some fr /\ forall fr', frame_result e o hd f (i + k) fr <> Ok fr'.
Proof.
  induction fs as [|fr t IH]; intros i H; cbn [recompress_frames_go] in H.
  - exfalso. apply (H []). reflexivity.
  - fold (frame_result e o hd f i fr) in H.
    destruct (frame_result e o hd f i fr) as [fr1|x|x] eqn:E1; cbn [bind] in H.
    + destruct (IH (S i)) as (k & fr0 & A & B).
      { intros fs' E2. apply (H (fr1 :: fs')). rewrite E2. reflexivity. }
      exists (S k), fr0. split; [exact A|]. replace (i + S k)%nat with (S i + k)%nat by lia. exact B.
    + exists O, fr. split; [reflexivity|]. rewrite Nat.add_0_r, E1. discriminate.
    + exists O, fr. split; [reflexivity|]. rewrite Nat.add_0_r, E1. discriminate.
Qed.
