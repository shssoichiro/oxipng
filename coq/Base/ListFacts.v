(* Facts about lists and about the list functions of Common.v that mention nothing of the model. *)

From OxiVerif Require Import Base.Common.
Local Open Scope nat_scope.

Lemma Forall_firstn {A} (P : A -> Prop) n l : Forall P l -> Forall P (firstn n l).
Proof. intros H. rewrite <- (firstn_skipn n l) in H. apply Forall_app in H. apply H. Qed.

Lemma Forall_skipn {A} (P : A -> Prop) n l : Forall P l -> Forall P (skipn n l).
Proof. intros H. rewrite <- (firstn_skipn n l) in H. apply Forall_app in H. apply H. Qed.

Lemma Forall_filter {A} (P : A -> Prop) (f : A -> bool) l : (forall x, In x l -> f x = true -> P x) -> Forall P (List.filter f l).
Proof. intros H. apply Forall_forall. intros x Hx. apply filter_In in Hx. exact (H x (proj1 Hx) (proj2 Hx)). Qed.

Lemma Forall2_length {A B} (R : A -> B -> Prop) l l' : Forall2 R l l' -> length l = length l'.
Proof. induction 1; cbn; congruence. Qed.

Lemma Forall2_combine {A B} (R : A -> B -> Prop) l l' : Forall2 R l l' ->
  map fst (combine l l') = l /\ map snd (combine l l') = l' /\ Forall (fun z => R (fst z) (snd z)) (combine l l').
Proof. induction 1 as [|a b t t' Hab _ (E1 & E2 & F)]; cbn [combine map fst snd]; [auto|]. rewrite E1, E2. auto. Qed.

Lemma map_fst_combine {A B} (a : list A) (b : list B) : length a = length b -> map fst (combine a b) = a.
Proof. revert b. induction a as [|x a IH]; intros [|y b] H; cbn in *; try lia; [reflexivity|]. rewrite IH by lia. reflexivity. Qed.

Lemma Forall2_same {A} (R : A -> A -> Prop) l : (forall x, R x x) -> Forall2 R l l.
Proof. intros H. induction l; constructor; auto. Qed.

Lemma Forall2_eq {A} (R : A -> A -> Prop) l l' : (forall a b, R a b -> a = b) -> Forall2 R l l' -> l = l'.
Proof. intros H. induction 1; [reflexivity|]. f_equal; auto. Qed.

Lemma Forall2_trans {A} (R : A -> A -> Prop) : (forall a b c, R a b -> R b c -> R a c) ->
  forall l1 l2 l3, Forall2 R l1 l2 -> Forall2 R l2 l3 -> Forall2 R l1 l3.
Proof. intros HR l1 l2 l3 H12. revert l3. induction H12; intros l3 H23; inversion H23; subst; constructor; eauto. Qed.

Lemma Forall2_strengthen {A B} (P : A -> Prop) (R S : A -> B -> Prop) l l' :
  Forall P l -> Forall2 R l l' -> (forall a b, P a -> R a b -> S a b) -> Forall2 S l l'.
Proof. intros HP HR HS. induction HR; constructor; inversion HP; subst; auto. Qed.

Lemma Forall2_impl {A B} (R S : A -> B -> Prop) l l' : (forall a b, R a b -> S a b) -> Forall2 R l l' -> Forall2 S l l'.
Proof. intros H F. apply (Forall2_strengthen (fun _ => True) R S l l'); [apply Forall_forall|exact F|]; auto. Qed.

Lemma Forall2_Forall_r {A B} (R : A -> B -> Prop) (P : A -> Prop) (Q : B -> Prop) l l' :
  Forall2 R l l' -> Forall P l -> (forall a b, R a b -> P a -> Q b) -> Forall Q l'.
Proof. intros F HP H. induction F; inversion HP; subst; constructor; eauto. Qed.

Lemma Forall2_map_both {A B C D} (R : C -> D -> Prop) (f : A -> C) (g : B -> D) l l' :
  Forall2 (fun a b => R (f a) (g b)) l l' -> Forall2 R (map f l) (map g l').
Proof. induction 1; cbn [map]; constructor; auto. Qed.

Lemma Forall2_map_in {A B} (P : A -> B -> Prop) (g : A -> B) l : (forall x, In x l -> P x (g x)) -> Forall2 P l (map g l).
Proof. induction l as [|a t IH]; intros H; cbn [map]; constructor; [apply H; left; reflexivity|apply IH; intros x Hx; apply H; right; exact Hx]. Qed.

Lemma Forall2_concat {A B} (R : A -> B -> Prop) l l' : Forall2 (Forall2 R) l l' -> Forall2 R (concat l) (concat l').
Proof. induction 1; cbn [concat]; [constructor|]. apply Forall2_app; assumption. Qed.

Lemma Forall2_concat_length {A} (l l' : list (list A)) : Forall2 (fun a b => length b = length a) l l' -> length (concat l') = length (concat l).
Proof. induction 1; cbn [concat]; [reflexivity|]. rewrite !app_length. congruence. Qed.

Lemma Forall2_repeat_l {A B} (R : A -> B -> Prop) a n l : Forall2 R (repeat a n) l -> length l = n /\ Forall (R a) l.
Proof.
  revert l. induction n as [|n IH]; intros l H; inversion H as [|? y ? t Hy Ht]; subst; [split; [reflexivity|constructor]|].
  destruct (IH t Ht) as [Hn HF]. split; [cbn [length]; rewrite Hn; reflexivity|constructor; assumption].
Qed.

Lemma nth_firstn_lt {A} (l : list A) n k d : (k < n) -> nth k (firstn n l) d = nth k l d.
Proof. revert n k. induction l as [|a t IH]; intros [|n] [|k] H; cbn; try lia; try reflexivity. apply IH. lia. Qed.

Lemma nth_snoc_other {A} (l : list A) x d k : k <> length l -> nth k (l ++ [x]) d = nth k l d.
Proof.
  intros H. destruct (Nat.lt_ge_cases k (length l)); [apply app_nth1; assumption|].
  rewrite !nth_overflow by (rewrite ?app_length; cbn [length]; lia). reflexivity.
Qed.

Lemma nth_error_rev {A} (l : list A) j : (j < length l) -> nth_error (rev l) (length l - 1 - j) = nth_error l j.
Proof.
  revert j. induction l as [|a t IH]; intros j Hj; [cbn in Hj; lia|]. cbn [rev length].
  destruct j as [|j].
  - rewrite nth_error_app2 by (rewrite rev_length; lia). rewrite rev_length. replace (S (length t) - 1 - 0 - length t) with 0 by lia. reflexivity.
  - cbn [length] in Hj. rewrite nth_error_app1 by (rewrite rev_length; lia). replace (S (length t) - 1 - S j) with (length t - 1 - j) by lia.
    rewrite IH by lia. reflexivity.
Qed.

Lemma length_by_nth_error {A} (l : list A) (N : nat) : (forall k, nth_error l k <> None <-> (k < N)) -> length l = N.
Proof.
  intros H. destruct (Nat.lt_trichotomy (length l) N) as [Hlt|[E|Hgt]]; [|exact E|]; exfalso.
  - apply (proj2 (H (length l)) Hlt). apply nth_error_None. lia.
  - pose proof (proj1 (H N) ltac:(apply nth_error_Some; lia)). lia.
Qed.

Lemma nth_set_nth {A} (l : list A) i k x d : nth k (set_nth i x l) d = if (k =? i) && (i <? length l) then x else nth k l d.
Proof. revert i k. induction l as [|h t IH]; intros [|i] [|k]; cbn [set_nth nth length]; rewrite ?andb_false_r; try reflexivity. apply IH. Qed.

Lemma nth_set_nth_same {A} (l : list A) i x d : (i < length l) -> nth i (set_nth i x l) d = x.
Proof. intros H. rewrite nth_set_nth, Nat.eqb_refl. destruct (Nat.ltb_spec i (length l)); [reflexivity|lia]. Qed.

Lemma nth_set_nth_other {A} (l : list A) i k x d : k <> i -> nth k (set_nth i x l) d = nth k l d.
Proof. intros H. rewrite nth_set_nth. destruct (Nat.eqb_spec k i); [contradiction|reflexivity]. Qed.

Lemma nth_set_nth_idem {A} (l : list A) i k x d : nth k l d = x -> nth k (set_nth i x l) d = x.
Proof. intros H. rewrite nth_set_nth, H. destruct (_ && _); reflexivity. Qed.

Lemma In_set_nth {A} (l : list A) i x y : In y (set_nth i x l) -> (y = x /\ (i < length l)) \/ In y l.
Proof.
  revert i. induction l as [|a t IH]; intros [|i]; cbn [set_nth In length]; try tauto.
  - intros [<-|H]; [left; split; [reflexivity|lia]|tauto].
  - intros [H|H]; [tauto|]. destruct (IH i H) as [[-> Hi]|H']; [left; split; [reflexivity|lia]|tauto].
Qed.

Lemma set_nth_keep {A} (l : list A) i a x : In x l -> nth_error l i = Some x \/ In x (set_nth i a l).
Proof.
  revert i. induction l as [|h t IH]; intros [|i] H; cbn [set_nth nth_error In] in *; try tauto.
  - destruct H as [->|H]; [left; reflexivity|right; right; exact H].
  - destruct H as [->|H]; [right; left; reflexivity|]. destruct (IH i H); [left|right; right]; assumption.
Qed.

Lemma Forall_set_nth {A} (P : A -> Prop) x l : P x -> Forall P l -> forall n, Forall P (set_nth n x l).
Proof. intros Hx. induction 1; intros [|n]; cbn [set_nth]; constructor; auto. Qed.

Lemma set_nth_app {A} (pre : list A) c post x : set_nth (length pre) x (pre ++ c :: post) = pre ++ x :: post.
Proof. induction pre as [|h t IH]; cbn [length app set_nth]; [reflexivity|]. rewrite IH. reflexivity. Qed.

Lemma map_repeat {A B} (f : A -> B) x n : map f (repeat x n) = repeat (f x) n.
Proof. induction n; simpl; congruence. Qed.

Lemma map_constant {A B} (c : B) (l : list A) : map (fun _ => c) l = repeat c (length l).
Proof. induction l as [|a t IH]; cbn; [reflexivity|]. rewrite IH. reflexivity. Qed.

Lemma map_flat_map {A B C} (h : B -> C) (f : A -> list B) ps : map h (flat_map f ps) = flat_map (fun p => map h (f p)) ps.
Proof. induction ps as [|p t IH]; cbn [flat_map]; [reflexivity|]. rewrite map_app, IH. reflexivity. Qed.

Lemma flat_map_ext_in {A B} (f g : A -> list B) l : (forall x, In x l -> f x = g x) -> flat_map f l = flat_map g l.
Proof. induction l as [|a t IH]; intros H; cbn; [reflexivity|]. rewrite H by (left; reflexivity). rewrite IH by (intros x Hx; apply H; right; exact Hx). reflexivity. Qed.

Lemma flat_map_map {A B C} (g : A -> B) (f : B -> list C) l : flat_map f (map g l) = flat_map (fun x => f (g x)) l.
Proof. induction l as [|a t IH]; cbn; [reflexivity|]. rewrite IH. reflexivity. Qed.

Lemma flat_map_concat {A B} (f : A -> list B) (ls : list (list A)) :
  flat_map (fun part => flat_map f part) ls = flat_map f (concat ls).
Proof. induction ls as [|l t IH]; cbn; [reflexivity|]. rewrite IH, flat_map_app. reflexivity. Qed.

Lemma concat_map_singleton {A} (l : list A) : concat (map (fun i => [i]) l) = l.
Proof. induction l as [|a t IH]; cbn; [reflexivity|]. rewrite IH. reflexivity. Qed.

Lemma concat_repeat {A} (x : A) n k : concat (repeat (repeat x n) k) = repeat x (k * n).
Proof. induction k as [|k IH]; [reflexivity|]. cbn [repeat concat Nat.mul]. rewrite IH, repeat_app. reflexivity. Qed.

Lemma firstn_app_exact {A} (a b : list A) : firstn (length a) (a ++ b) = a.
Proof. induction a; cbn; [reflexivity|]. rewrite IHa. reflexivity. Qed.

Lemma skipn_app_exact {A} (a b : list A) : skipn (length a) (a ++ b) = b.
Proof. induction a; cbn; auto. Qed.

Lemma skipn_cons_nth {A} (d : A) (l : list A) : forall n, (n < length l)%nat -> skipn n l = nth n l d :: skipn (S n) l.
Proof. induction l as [|a t IH]; intros [|n] H; cbn in H; try lia; [reflexivity|]. apply IH. lia. Qed.

Lemma filter_true {A} (l : list A) : List.filter (fun _ => true) l = l.
Proof. induction l as [|x t IH]; [reflexivity|]. cbn. rewrite IH. reflexivity. Qed.

Lemma filter_none {A} (f : A -> bool) l : Forall (fun x => f x = false) l -> List.filter f l = [].
Proof. induction 1 as [|x t Hx _ IH]; [reflexivity|]. cbn [List.filter]. rewrite Hx. exact IH. Qed.

Lemma filter_filter {A} (f g : A -> bool) l : List.filter g (List.filter f l) = List.filter (fun x => f x && g x) l.
Proof. induction l as [|x t IH]; [reflexivity|]. cbn [List.filter]. destruct (f x); cbn [List.filter andb]; [destruct (g x)|]; rewrite IH; reflexivity. Qed.

Lemma existsb_filter {A} (f : A -> bool) l : existsb f l = match List.filter f l with [] => false | _ => true end.
Proof. induction l as [|x t IH]; [reflexivity|]. cbn [existsb List.filter]. destruct (f x); [reflexivity|exact IH]. Qed.

Lemma filter_last_other {A} (f : A -> bool) l x : f x = false -> List.filter f (l ++ [x]) = List.filter f l.
Proof. intros H. rewrite filter_app. cbn [List.filter]. rewrite H. apply app_nil_r. Qed.

Lemma filter_rev {A} (f : A -> bool) l : List.filter f (rev l) = rev (List.filter f l).
Proof.
  induction l as [|x t IH]; [reflexivity|]. cbn [rev List.filter]. rewrite filter_app, IH. cbn [List.filter].
  destruct (f x); cbn [rev]; [reflexivity|rewrite app_nil_r; reflexivity].
Qed.

Lemma find_filter {A} (f : A -> bool) l : find f l = match List.filter f l with x :: _ => Some x | [] => None end.
Proof. induction l as [|a t IH]; cbn [find List.filter]; [reflexivity|]. destruct (f a); [reflexivity|exact IH]. Qed.

Lemma find_last_other {A} (f : A -> bool) l x : f x = false -> find f (l ++ [x]) = find f l.
Proof. intros H. rewrite !find_filter, filter_last_other by exact H. reflexivity. Qed.

Lemma find_app {A} (f : A -> bool) l1 l2 : find f (l1 ++ l2) = match find f l1 with Some x => Some x | None => find f l2 end.
Proof. rewrite !find_filter, filter_app. destruct (List.filter f l1); reflexivity. Qed.

Lemma find_none_forall {A} (f : A -> bool) l : Forall (fun x => f x = false) l -> find f l = None.
Proof. intros H. rewrite find_filter, filter_none by exact H. reflexivity. Qed.

Lemma in_removelast {A} (x : A) l : In x (removelast l) -> In x l.
Proof. induction l as [|a [|b t] IH]; cbn [removelast]; intros H; [destruct H|destruct H|]. destruct H as [<-|H]; [left; reflexivity|right; auto]. Qed.

Lemma NoDup_app_disj {A} (a b : list A) : NoDup a -> NoDup b -> (forall x, In x a -> In x b -> False) -> NoDup (a ++ b).
Proof.
  induction 1 as [|x t Hx Hnd IH]; intros Hb Hd; [exact Hb|]. cbn [app]. constructor.
  - intros Hin. apply in_app_or in Hin. destruct Hin as [Hin|Hin]; [contradiction|]. apply (Hd x); [left; reflexivity|exact Hin].
  - apply IH; [exact Hb|]. intros y Hy Hyb. apply (Hd y); [right; exact Hy|exact Hyb].
Qed.

Lemma nodup_full (l : list Z) n : NoDup l -> (forall x, In x l -> 0 <= x < Z.of_nat n)%Z ->
  length l <= n /\ (length l = n -> forall v, (0 <= v < Z.of_nat n)%Z -> In v l).
Proof.
  intros Hnd Hr. set (all := map Z.of_nat (seq 0 n)).
  assert (Hincl : incl l all).
  { intros x Hx. specialize (Hr x Hx). unfold all. apply in_map_iff. exists (Z.to_nat x). split; [lia|apply in_seq; lia]. }
  assert (Hla : length all = n) by (unfold all; rewrite map_length, seq_length; reflexivity).
  split; [rewrite <- Hla; apply NoDup_incl_length; assumption|].
  intros Hl v Hv. apply (NoDup_length_incl (l := l) (l' := all) Hnd); [lia|exact Hincl|]. unfold all. apply in_map_iff. exists (Z.to_nat v). split; [lia|apply in_seq; lia].
Qed.

Lemma all_some_eq {A} (l : list (option A)) : forall r, all_some l = Some r -> l = map Some r.
Proof.
  induction l as [|[a|] t IH]; cbn [all_some]; intros r H; try discriminate.
  - injection H as <-. reflexivity.
  - destruct (all_some t) as [r'|]; [|discriminate]. injection H as <-. cbn [map]. f_equal. apply IH. reflexivity.
Qed.

Lemma all_some_in {A} (l : list (option A)) r : all_some l = Some r -> forall x, In x r -> In (Some x) l.
Proof. intros H x Hx. rewrite (all_some_eq _ _ H). apply in_map. exact Hx. Qed.

Lemma all_some_map_option_map {A B} (f : A -> B) (l : list (option A)) :
  all_some (map (option_map f) l) = option_map (map f) (all_some l).
Proof.
  induction l as [|[a|] t IH]; cbn [map all_some option_map]; [reflexivity| |reflexivity].
  rewrite IH. destruct (all_some t); reflexivity.
Qed.

Lemma all_some_nth_error {A} (r : list A) : all_some (map (fun x => nth_error r x) (seq 0 (length r))) = Some r.
Proof.
  assert (G : forall (pre l : list A), all_some (map (fun x => nth_error (pre ++ l) x) (seq (length pre) (length l))) = Some l).
  { intros pre l. revert pre. induction l as [|a t IH]; intros pre; cbn [length seq map all_some]; [reflexivity|].
    rewrite nth_error_app2, Nat.sub_diag by lia. cbn [nth_error].
    specialize (IH (pre ++ [a])). rewrite app_length, Nat.add_1_r, <- app_assoc in IH. cbn [app] in IH. rewrite IH. reflexivity. }
  apply (G [] r).
Qed.

Lemma all_some_rel {A B} (R : A -> B -> Prop) (zs : list (option A * option B)) :
  Forall (fun z => forall a, fst z = Some a -> exists b, snd z = Some b /\ R a b) zs ->
  forall l, all_some (map fst zs) = Some l -> exists l', all_some (map snd zs) = Some l' /\ Forall2 R l l'.
Proof.
  induction 1 as [|z t Hz _ IH]; intros l H; cbn [map all_some] in *.
  - injection H as <-. exists []. split; [reflexivity|constructor].
  - destruct (fst z) as [a|]; [|discriminate]. destruct (all_some (map fst t)) as [r|]; [|discriminate]. injection H as <-.
    destruct (Hz a eq_refl) as (b & -> & Hab). destruct (IH r eq_refl) as (r' & -> & Hr).
    exists (b :: r'). split; [reflexivity|constructor; assumption].
Qed.

Lemma sumZ_app a b : sumZ (a ++ b) = (sumZ a + sumZ b)%Z.
Proof. induction a; simpl; lia. Qed.

Lemma sumZ_repeat v n : sumZ (repeat v n) = (Z.of_nat n * v)%Z.
Proof. induction n; cbn [repeat sumZ fold_right]; [lia|]. unfold sumZ in IHn. rewrite IHn. lia. Qed.

Lemma list_eqb_refl {A} (eqb : A -> A -> bool) (Hr : forall x, eqb x x = true) l : list_eqb eqb l l = true.
Proof. induction l; cbn; auto. rewrite Hr, IHl. reflexivity. Qed.

Lemma list_eqb_Z_false l1 l2 : l1 <> l2 -> list_eqb Z.eqb l1 l2 = false.
Proof. intros H. destruct (list_eqb Z.eqb l1 l2) eqn:E; [apply list_eqb_Z_spec in E; contradiction|reflexivity]. Qed.

Lemma concat_length_uniform {A} (B : nat) (pxs : list (list A)) :
  Forall (fun px => length px = B) pxs -> length (concat pxs) = length pxs * B.
Proof. induction 1 as [|px t Hpx Ht IH]; cbn [concat length]; [reflexivity|]. rewrite app_length, IH, Hpx. lia. Qed.

Lemma cut_concat_uniform {A} (B : nat) (pxs : list (list A)) : Forall (fun px => length px = B) pxs ->
  forall n, firstn (n * B) (concat pxs) = concat (firstn n pxs) /\ skipn (n * B) (concat pxs) = concat (skipn n pxs).
Proof.
  induction 1 as [|px t Hpx Ht IH]; intros [|n]; cbn [concat firstn skipn Nat.mul]; auto.
  - rewrite firstn_nil, skipn_nil. auto.
  - destruct (IH n) as [IH1 IH2]. replace (B + n * B) with (length px + n * B) by lia.
    rewrite firstn_app_2, IH1, skipn_app, skipn_all2, Nat.add_comm, Nat.add_sub, IH2 by lia. auto.
Qed.

Lemma chunks_exact_fuel_indep {A} (B : nat) : 0 < B -> forall f1 f2 (l : list A), length l <= f1 -> length l <= f2 ->
  chunks_exact_fuel f1 B l = chunks_exact_fuel f2 B l.
Proof.
  intros HB. induction f1 as [|f1 IH]; intros f2 l H1 H2.
  - destruct f2; cbn [chunks_exact_fuel]; [reflexivity|]. destruct (Nat.ltb_spec (length l) B); [reflexivity|lia].
  - destruct f2 as [|f2]; cbn [chunks_exact_fuel]; destruct (Nat.ltb_spec (length l) B); try reflexivity.
    + lia.
    + f_equal. apply IH; rewrite skipn_length; lia.
Qed.

Lemma chunks_exact_nil {A} (n : nat) : chunks_exact n (@nil A) = [].
Proof. destruct n; reflexivity. Qed.

Lemma chunks_exact_step {A} (n : nat) (l : list A) : 0 < n -> n <= length l ->
  chunks_exact n l = firstn n l :: chunks_exact n (skipn n l).
Proof.
  intros Hn Hl. unfold chunks_exact. destruct n as [|n]; [lia|]. destruct l as [|x t]; [cbn in Hl; lia|].
  cbn [length chunks_exact_fuel]. destruct (Nat.ltb_spec (S (length t)) (S n)); [cbn [length] in Hl; lia|]. f_equal.
  apply chunks_exact_fuel_indep; [lia| |lia]. rewrite skipn_length. cbn [length]. lia.
Qed.

Lemma chunks_exact_app {A} (B : nat) (px rest : list A) : 0 < B -> length px = B ->
  chunks_exact B (px ++ rest) = px :: chunks_exact B rest.
Proof. intros HB <-. rewrite chunks_exact_step, firstn_app_exact, skipn_app_exact by (rewrite ?app_length; lia). reflexivity. Qed.

Lemma chunks_exact_concat {A} (B : nat) (pxs : list (list A)) : 0 < B ->
  Forall (fun px => length px = B) pxs -> chunks_exact B (concat pxs) = pxs.
Proof.
  intros HB. induction 1 as [|px t Hpx Ht IH]; cbn [concat]; [destruct B; [lia|reflexivity]|].
  rewrite chunks_exact_app, IH by assumption. reflexivity.
Qed.

Lemma concat_of_multiple {A} (B : nat) k : forall l : list A, length l = k * B ->
  exists pxs, l = concat pxs /\ Forall (fun px => length px = B) pxs /\ length pxs = k.
Proof.
  induction k as [|k IH]; intros l Hl.
  - exists []. destruct l; [auto|discriminate].
  - destruct (IH (skipn B l)) as (pxs & E & U & N); [rewrite skipn_length; lia|].
    exists (firstn B l :: pxs). cbn [concat length]. rewrite <- E, firstn_skipn, N. repeat split.
    constructor; [rewrite firstn_length; lia|exact U].
Qed.

Lemma chunks_exact_spec {A} (B : nat) (l : list A) k : 0 < B -> length l = k * B ->
  concat (chunks_exact B l) = l /\ Forall (fun px => length px = B) (chunks_exact B l) /\ length (chunks_exact B l) = k.
Proof.
  intros HB Hl. destruct (concat_of_multiple B k l Hl) as (pxs & -> & U & <-). rewrite chunks_exact_concat by assumption. auto.
Qed.

Lemma chunks_exact_app_multiple {A} (n : nat) (a b : list A) k : 0 < n -> length a = k * n ->
  chunks_exact n (a ++ b) = chunks_exact n a ++ chunks_exact n b.
Proof.
  intros Hn Ha. destruct (chunks_exact_spec n a k Hn Ha) as (E & U & _). rewrite <- E at 1. clear E.
  induction U as [|px t Hpx _ IH]; cbn [concat app]; [reflexivity|]. rewrite <- app_assoc, chunks_exact_app, IH by assumption. reflexivity.
Qed.

Lemma chunks_exact_flat_map {A B} (n : nat) (f : B -> list A) (l : list B) k : 0 < n ->
  (forall x, length (f x) = k * n) -> chunks_exact n (flat_map f l) = flat_map (fun x => chunks_exact n (f x)) l.
Proof.
  intros Hn Hf. induction l as [|x t IH]; cbn [flat_map]; [apply chunks_exact_nil|].
  rewrite (chunks_exact_app_multiple n _ _ k), IH by auto. reflexivity.
Qed.

Lemma chunks_exact_lengths {A} (B : nat) (l : list A) : Forall (fun px => length px = B) (chunks_exact B l).
Proof.
  unfold chunks_exact. destruct B as [|B]; [constructor|].
  generalize (length l) at 1. intros fuel. revert l. induction fuel as [|f IH]; intros l; cbn [chunks_exact_fuel]; [constructor|].
  destruct (Nat.ltb_spec (length l) (S B)); [constructor|]. constructor; [rewrite firstn_length; lia|apply IH].
Qed.

Lemma chunks_exact_1 {A} (l : list A) : chunks_exact 1 l = map (fun b => [b]) l.
Proof.
  unfold chunks_exact. induction l as [|a t IH]; [reflexivity|]. cbn [length chunks_exact_fuel firstn skipn map].
  destruct (Nat.ltb_spec (S (length t)) 1); [lia|]. rewrite IH. reflexivity.
Qed.

Lemma chunks_exact_concat_lines {A} (B : nat) (ls : list (list A)) : (0 < B) ->
  Forall (fun l => exists k, length l = (k * B)) ls ->
  chunks_exact B (concat ls) = concat (map (chunks_exact B) ls).
Proof.
  intros HB H.
  assert (E : concat ls = concat (concat (map (chunks_exact B) ls)) /\ Forall (fun px => length px = B) (concat (map (chunks_exact B) ls))).
  { induction H as [|l t [k Hk] _ [IH1 IH2]]; cbn [map concat]; [split; [reflexivity|constructor]|].
    destruct (chunks_exact_spec B l k HB Hk) as (C1 & C2 & _). split.
    - rewrite concat_app, C1, <- IH1. reflexivity.
    - apply Forall_app. split; assumption. }
  destruct E as [E1 E2]. rewrite E1 at 1. apply chunks_exact_concat; assumption.
Qed.

Lemma chunks_fuel_indep {A} (n : nat) : (0 < n) -> forall f1 f2 (l : list A), (length l <= f1) -> (length l <= f2) ->
  chunks_fuel f1 n l = chunks_fuel f2 n l.
Proof.
  intros Hn. induction f1 as [|f1 IH]; intros f2 l H1 H2.
  - destruct l; [|cbn in H1; lia]. destruct f2; reflexivity.
  - destruct f2 as [|f2]; [destruct l; [reflexivity|cbn in H2; lia]|].
    cbn [chunks_fuel]. destruct l as [|x t]; [reflexivity|]. f_equal. apply IH; rewrite skipn_length; cbn [length] in *; lia.
Qed.

Lemma chunks_step {A} (n : nat) (l : list A) : (0 < n) -> l <> [] -> chunks n l = firstn n l :: chunks n (skipn n l).
Proof.
  intros Hn Hl. unfold chunks. destruct n as [|n]; [lia|]. destruct l as [|x t]; [congruence|].
  cbn [length chunks_fuel]. f_equal. apply chunks_fuel_indep; [lia| |lia]. rewrite skipn_length. cbn [length]. lia.
Qed.

Lemma chunks_nil {A} (n : nat) : chunks n (@nil A) = [].
Proof. unfold chunks. destruct n; reflexivity. Qed.

Lemma chunks_multiple {A} (B : nat) k : 0 < B -> forall l : list A, length l = k * B -> chunks B l = chunks_exact B l.
Proof.
  intros HB. induction k as [|k IH]; intros l Hl.
  - destruct l; [|cbn in Hl; lia]. rewrite chunks_nil, chunks_exact_nil. reflexivity.
  - rewrite chunks_step, chunks_exact_step by (try lia; intros ->; cbn in Hl; lia). f_equal.
    apply IH. rewrite skipn_length. lia.
Qed.

Lemma bytes_ok_in l x : bytes_ok l -> In x l -> (0 <= x < 256)%Z.
Proof. unfold bytes_ok. rewrite Forall_forall. intros H Hx. apply H. exact Hx. Qed.

Lemma bytes_ok_zeros n : bytes_ok (repeat 0%Z n).
Proof. apply bytes_ok_repeat. unfold byte_ok. lia. Qed.

Lemma bytes_ok_map2 (f : Z -> Z -> Z) l1 l2 : (forall a b, byte_ok a -> byte_ok b -> byte_ok (f a b)) ->
  bytes_ok l1 -> bytes_ok l2 -> bytes_ok (map2 f l1 l2).
Proof.
  intros Hf. revert l2. induction l1 as [|a t IH]; intros [|b t2] H1 H2; cbn [map2]; try constructor.
  - apply bytes_ok_cons in H1, H2. apply Hf; tauto.
  - apply bytes_ok_cons in H1, H2. apply IH; tauto.
Qed.

Lemma bytes_ok_chunk (B : nat) data px : bytes_ok data -> In px (chunks_exact B data) -> bytes_ok px.
Proof.
  unfold chunks_exact. destruct B as [|B]; [intros _ []|].
  generalize (length data) at 1. intros fuel. revert data. induction fuel as [|f IH]; intros data Hok Hin; cbn [chunks_exact_fuel] in Hin; [destruct Hin|].
  destruct (length data <? S B); [destruct Hin|]. destruct Hin as [<-|Hin].
  - apply bytes_ok_firstn. exact Hok.
  - apply (IH (skipn (S B) data)); auto. apply bytes_ok_skipn. exact Hok.
Qed.
