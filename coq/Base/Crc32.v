(* CRC-32 (ISO 3309 / PNG annex D), reflected polynomial 0xEDB88320: crc32 goes byte by byte over the 256-entry crc_table,
   whose entries crc_bits computes bit by bit; crc32_with takes the table as an argument. *)
From OxiVerif Require Import Base.Common.

Definition crc_poly : Z := 3988292384.  (* 0xEDB88320 *)

Fixpoint crc_bits (n : nat) (c : Z) : Z :=
  match n with
  | O => c
  | S n' => crc_bits n' (if Z.odd c then Z.lxor (c / 2) crc_poly else c / 2)
  end.

(* table entry for one byte value *)
Definition crc_entry (b : Z) : Z := crc_bits 8 b.
Definition crc_table : list Z := map (fun i => crc_entry (Z.of_nat i)) (seq 0 256).

Definition crc_update (table : list Z) (c : Z) (b : Z) : Z :=
  Z.lxor (nth (Z.to_nat (Z.land (Z.lxor c b) 255)) table 0) (c / 256).

Definition crc32_with (table : list Z) (data : list Z) : Z :=
  Z.lxor (fold_left (crc_update table) data 4294967295) 4294967295.

Definition crc32 (data : list Z) : Z := crc32_with crc_table data.
