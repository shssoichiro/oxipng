(* Base definitions shared by Spec/ and Model/: result type, byte predicates, list helpers.
   No proofs about the code live here; only small general lemmas. *)
From Coq Require Export List ZArith Lia Bool Arith.
Export ListNotations.
Open Scope Z_scope.
Open Scope bool_scope.

(* Mirrors the kinds of oxipng's PngError that the checks distinguish *)
Inductive err :=
| ENotPNG | ETruncated | EInvalidData | EAPNGOutOfOrder | EChunkMissing | EInvalidDepthForType
| EIncorrectDataLength | EC2PA | EDeflatedTooLong | EOther.

(* Why the Rust code would panic at this point *)
Inductive panic := PAssert | PIndex | POverflow | PUnwrap | PFuel | PUnreachable.

Inductive res (A : Type) :=
| Ok (a : A)
| Err (e : err)
| Panic (p : panic).
Arguments Ok {A} a.
Arguments Err {A} e.
Arguments Panic {A} p.

Definition bind {A B} (r : res A) (f : A -> res B) : res B :=
  match r with Ok a => f a | Err e => Err e | Panic p => Panic p end.
Notation "'do' x <- r ; k" := (bind r (fun x => k)) (at level 200, x pattern, r at level 100, k at level 200).

Lemma bind_Ok {A B} (r : res A) (f : A -> res B) y : bind r f = Ok y -> exists x, r = Ok x /\ f x = Ok y.
Proof. destruct r; cbn [bind]; [eauto|discriminate|discriminate]. Qed.

Lemma bind_no_panic {A B} (r : res A) (f : A -> res B) p :
  (forall q, r <> Panic q) -> (forall x, r = Ok x -> f x <> Panic p) -> bind r f <> Panic p.
Proof. intros Hr Hf. destruct r as [x| |q]; cbn [bind]; [apply Hf; reflexivity|discriminate|destruct (Hr q eq_refl)]. Qed.

Definition is_ok {A} (r : res A) := match r with Ok _ => true | _ => false end.
Definition is_panic {A} (r : res A) := match r with Panic _ => true | _ => false end.

Definition byte_ok (b : Z) : Prop := 0 <= b < 256.
Definition bytes_ok (l : list Z) : Prop := Forall byte_ok l.
Definition byte_okb (b : Z) : bool := (0 <=? b) && (b <? 256).
Definition bytes_okb (l : list Z) : bool := forallb byte_okb l.

Lemma byte_okb_spec b : byte_okb b = true <-> byte_ok b.
Proof. unfold byte_okb, byte_ok. rewrite andb_true_iff, Z.leb_le, Z.ltb_lt. tauto. Qed.

Lemma bytes_okb_spec l : bytes_okb l = true <-> bytes_ok l.
Proof.
  unfold bytes_okb, bytes_ok. rewrite forallb_forall, Forall_forall.
  split; intros H x Hx; apply byte_okb_spec; auto.
Qed.

Lemma bytes_ok_app a b : bytes_ok (a ++ b) <-> bytes_ok a /\ bytes_ok b.
Proof. unfold bytes_ok. apply Forall_app. Qed.

Lemma bytes_ok_cons x l : bytes_ok (x :: l) <-> byte_ok x /\ bytes_ok l.
Proof. unfold bytes_ok. split; intros H; [inversion H; auto | destruct H; constructor; auto]. Qed.


Lemma In_firstn {A} n (l : list A) x : In x (firstn n l) -> In x l.
Proof. revert n; induction l as [|a t IH]; intros [|n]; simpl; try tauto. intros [->|H]; eauto. Qed.
Lemma In_skipn {A} n (l : list A) x : In x (skipn n l) -> In x l.
Proof. revert n; induction l as [|a t IH]; intros [|n]; simpl; try tauto. intros H; eauto. Qed.

Lemma bytes_ok_firstn n l : bytes_ok l -> bytes_ok (firstn n l).
Proof. unfold bytes_ok. rewrite !Forall_forall. intros H x Hx. apply H. eapply In_firstn; eauto. Qed.
Lemma bytes_ok_skipn n l : bytes_ok l -> bytes_ok (skipn n l).
Proof. unfold bytes_ok. rewrite !Forall_forall. intros H x Hx. apply H. eapply In_skipn; eauto. Qed.
Lemma bytes_ok_repeat b n : byte_ok b -> bytes_ok (repeat b n).
Proof. intros H. unfold bytes_ok. apply Forall_forall. intros x Hx. apply repeat_spec in Hx. subst; auto. Qed.

Definition lenZ {A} (l : list A) : Z := Z.of_nat (length l).

Fixpoint map2 {A B C} (f : A -> B -> C) (l1 : list A) (l2 : list B) : list C :=
  match l1, l2 with
  | a :: t1, b :: t2 => f a b :: map2 f t1 t2
  | _, _ => []
  end.

Lemma map2_length {A B C} (f : A -> B -> C) l1 l2 : length (map2 f l1 l2) = Nat.min (length l1) (length l2).
Proof. revert l2; induction l1 as [|a t IH]; intros [|b t2]; simpl; auto. Qed.

(* split a list into consecutive pieces of the given lengths (None if too short) *)
Fixpoint split_lens {A} (lens : list nat) (l : list A) : option (list (list A)) :=
  match lens with
  | [] => Some []
  | n :: r =>
      if (length l <? n)%nat then None
      else match split_lens r (skipn n l) with
           | Some t => Some (firstn n l :: t)
           | None => None
           end
  end.

(* chunks of exactly n (the remainder is dropped, as Rust's chunks_exact) *)
Fixpoint chunks_exact_fuel {A} (fuel : nat) (n : nat) (l : list A) : list (list A) :=
  match fuel with
  | O => []
  | S f => if (length l <? n)%nat then [] else firstn n l :: chunks_exact_fuel f n (skipn n l)
  end.
Definition chunks_exact {A} (n : nat) (l : list A) : list (list A) :=
  match n with O => [] | _ => chunks_exact_fuel (length l) n l end.

(* chunks of at most n (the last one may be shorter, as Rust's chunks) *)
Fixpoint chunks_fuel {A} (fuel : nat) (n : nat) (l : list A) : list (list A) :=
  match fuel with
  | O => []
  | S f => match l with [] => [] | _ => firstn n l :: chunks_fuel f n (skipn n l) end
  end.
Definition chunks {A} (n : nat) (l : list A) : list (list A) :=
  match n with O => [] | _ => chunks_fuel (length l) n l end.

Fixpoint set_nth {A} (n : nat) (x : A) (l : list A) : list A :=
  match l, n with
  | [], _ => []
  | _ :: t, O => x :: t
  | h :: t, S n => h :: set_nth n x t
  end.

Lemma set_nth_length {A} (l : list A) i x : length (set_nth i x l) = length l.
Proof. revert i; induction l as [|h t IH]; intros [|i]; simpl; auto. Qed.
Lemma nth_error_set_nth_eq {A} (l : list A) i x :
  (i < length l)%nat -> nth_error (set_nth i x l) i = Some x.
Proof. revert i; induction l as [|h t IH]; intros [|i] H; simpl in *; try lia; auto. apply IH; lia. Qed.
Lemma nth_error_set_nth_neq {A} (l : list A) i j x :
  i <> j -> nth_error (set_nth i x l) j = nth_error l j.
Proof. revert i j; induction l as [|h t IH]; intros [|i] [|j] H; simpl; auto; try congruence. Qed.

Fixpoint all_some {A} (l : list (option A)) : option (list A) :=
  match l with
  | [] => Some []
  | Some a :: t => match all_some t with Some r => Some (a :: r) | None => None end
  | None :: _ => None
  end.

Fixpoint list_eqb {A} (eqb : A -> A -> bool) (l1 l2 : list A) : bool :=
  match l1, l2 with
  | [], [] => true
  | a :: t1, b :: t2 => eqb a b && list_eqb eqb t1 t2
  | _, _ => false
  end.

Lemma list_eqb_Z_spec l1 l2 : list_eqb Z.eqb l1 l2 = true <-> l1 = l2.
Proof.
  revert l2; induction l1 as [|a t IH]; intros [|b t2]; simpl; try (split; congruence).
  rewrite andb_true_iff, Z.eqb_eq, IH. split; [intros [-> ->]; auto | intros H; injection H; auto].
Qed.

Definition sumZ (l : list Z) : Z := fold_right Z.add 0 l.
Definition sum_nat (l : list nat) : nat := fold_right Nat.add O l.

Definition cdiv (a b : Z) : Z := (a + b - 1) / b.

Definition be16 (hi lo : Z) : Z := hi * 256 + lo.
Definition be32 (a b c d : Z) : Z := ((a * 256 + b) * 256 + c) * 256 + d.
Definition to_be16 (v : Z) : list Z := [v / 256 mod 256; v mod 256].
Definition to_be32 (v : Z) : list Z := [v / 16777216 mod 256; v / 65536 mod 256; v / 256 mod 256; v mod 256].
